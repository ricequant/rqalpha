(* C04  Order lifecycle: legal transitions, fill accounting, nothing left dangling. *)
From RQ Require Import Model.Num Model.Matcher Model.Order Proofs.OrderFacts.
From RQ Require Import Model.Broker Gen.BrokerProg.
From Coq Require Import Lqa.
Open Scope Q_scope.

(* one broker step on an order: well-formedness is kept, the status moves along a legal edge, the emitted events
   advance the protocol automaton, and the order's fill bookkeeping moves by exactly the announced trade *)
Theorem C04_step : forall o i, OWF o -> in_ok o i ->
  OWF (fst (ostep o i)) /\ prun (pstate_of o) (snd (ostep o i)) = pstate_of (fst (ostep o i)) /\
  legal (os_status o) (os_status (fst (ostep o i))) /\
  os_filled (fst (ostep o i)) == os_filled o + traded_qty (snd (ostep o i)) /\
  os_avg (fst (ostep o i)) * os_filled (fst (ostep o i)) == os_avg o * os_filled o + traded_value (snd (ostep o i)) /\
  os_tcost (fst (ostep o i)) == os_tcost o + traded_fees (snd (ostep o i)).
Proof. intros o i W I. exact (otrans_ok _ _ _ W (ostep_trans o i W I)). Qed.
(* for every sequence of submissions, match rounds (any outcomes), cancels and day boundaries the events of an order
   follow  PENDING_NEW CREATION_PASS TRADE* (UNSOLICITED_UPDATE | PENDING_CANCEL CANCELLATION_PASS)?  *)
Theorem C04_protocol : forall qty ins, 0 < qty -> ins_ok (fresh_order qty) ins ->
  prun P0 (snd (orun (fresh_order qty) ins)) <> PFail.
Proof. intros qty ins H I. destruct (orun_ok ins _ (fresh_wf qty H) I) as (_ & P & _). change P0 with (pstate_of (fresh_order qty)). rewrite P.
  unfold pstate_of. destruct (os_status _); discriminate. Qed.
(* filled = sum of trade quantities <= quantity; FILLED iff equal; average price is quantity weighted; cost = sum of fees *)
Theorem C04_fill_accounting : forall qty ins, 0 < qty -> ins_ok (fresh_order qty) ins ->
  let o := fst (orun (fresh_order qty) ins) in let evs := snd (orun (fresh_order qty) ins) in
  os_filled o == traded_qty evs /\ os_filled o <= os_qty o /\ (os_status o = SFilled <-> os_filled o == os_qty o) /\
  os_avg o * os_filled o == traded_value evs /\ os_tcost o == traded_fees evs.
Proof. intros qty ins H I o evs. destruct (orun_ok ins _ (fresh_wf qty H) I) as (W & _ & Q & V & F). fold o in W, Q, V, F. fold evs in Q, V, F.
  cbn [fresh_order os_filled os_avg os_tcost] in *. destruct W as (Hq & Hf0 & Hfq & Hs).
  repeat split; try lra.
  - intros E. rewrite E in Hs. tauto.
  - intros E. destruct (os_status o); try reflexivity; try (destruct Hs as [_ Hs]; lra); contradiction.
Qed.
Theorem C04_final_absorbing : forall o i, OWF o -> is_final (os_status o) = true -> ostep o i = (o, []).
Proof. intros o i (Hq & Hf0 & Hfq & Hs) F. destruct (os_status o) eqn:S; try discriminate; destruct Hs as [Hp _];
  destruct i as [a|r f| | |]; cbn [ostep]; rewrite ?S, ?Hp; cbn [is_final]; try reflexivity; destruct a; reflexivity. Qed.
Theorem C04_nothing_open_after_close : forall o, OWF o -> os_place (fst (ostep o IAfterTrading)) <> InOpen.
Proof. intros o W. cbn [ostep]. destruct (os_place o) eqn:P; cbn [fst]; try congruence. unfold out, with_status. cbn. discriminate. Qed.
Theorem C04_returned_final_or_listed : forall o, OWF o -> os_status o <> PendingNew -> is_final (os_status o) = true \/ os_place o <> Nowhere.
Proof. intros o (Hq & Hf0 & Hfq & Hs) N. destruct (os_status o); try congruence; cbn; try (left; reflexivity); try contradiction.
  right. tauto. Qed.

Example C04_example :
  let ins := [ISubmit true; IMatch (Filled 10 300 0 false) 5; IMatch NoMatch 0; IMatch (Filled 11 700 0 false) 6; ICancel; IAfterTrading] in
  let r := orun (fresh_order 1000) ins in
  os_status (fst r) = SFilled /\ snd r = [EvPendingNew; EvCreationPass; EvTrade 10 300 5; EvTrade 11 700 6] /\
  os_avg (fst r) == (107 # 10) /\ os_tcost (fst r) == 11.
Proof. repeat split; vm_compute; reflexivity. Qed.

(* Tie A: SimulationBroker's methods, regenerated from the source on every run as programs over the primitives of Model/Broker.v
   (Gen/BrokerProg.v): the program of `_match` interprets to the model's matching round, and on_bar / before_trading / after_trading /
   cancel_order / submit_order are the programs the model was written for (an order leaves BOTH books on cancel, final orders are collected
   from BOTH books, the matchers are updated BEFORE the bar's orders are matched, everything still open is rejected at the close ...) *)
Theorem C04_code_broker_is_model :
  (forall fin ph s, interp fin ph gen_match s = bmatch fin s ph) /\
  prog_eqb gen_on_bar expected_on_bar && prog_eqb gen_before_trading expected_before_trading && prog_eqb gen_after_trading expected_after_trading &&
  prog_eqb gen_cancel expected_cancel && prog_eqb gen_submit expected_submit && listeners_as_expected = true.
Proof. split; [exact gen_match_is_model|exact gen_programs_as_modelled]. Qed.

Print Assumptions C04_step.
Print Assumptions C04_protocol.
Print Assumptions C04_fill_accounting.
Print Assumptions C04_final_absorbing.
Print Assumptions C04_nothing_open_after_close.
Print Assumptions C04_returned_final_or_listed.
Print Assumptions C04_code_broker_is_model.
