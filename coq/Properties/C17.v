(* C17  Scheduler fires exactly on the trading days and times its rules denote. *)
From RQ Require Import Model.Num Model.Scheduler Model.Phases Proofs.SchedulerFacts Gen.ApiPhases.
From Coq Require Import Lia.
Open Scope Z_scope.

(* for every well-formed calendar and every sequence of trading days the caches hold the trading days of today's week / month *)
Theorem C17_week_cache : forall cal s prev today start, cwf cal -> In prev cal -> In today cal -> c_ord prev < c_ord today ->
  sc_week s = fill_week cal prev -> sc_week (next_day cal start s today) = fill_week cal today.
Proof. intros cal s prev today start _ Hp Ht Hlt Hc. unfold next_day; cbn [sc_week].
  apply (refresh_correct week_of cal (fun a b _ _ => week_of_mono a b) (sc_week s) prev today Hp Ht Hc Hlt). Qed.
Theorem C17_month_cache : forall cal s prev today start, cwf cal -> In prev cal -> In today cal -> c_ord prev < c_ord today ->
  sc_month s = fill_month cal prev -> sc_month (next_day cal start s today) = fill_month cal today.
Proof. intros cal s prev today start W Hp Ht Hlt Hc. unfold next_day; cbn [sc_month].
  apply (refresh_correct c_ym cal (cwf_ym_mono cal W) (sc_month s) prev today Hp Ht Hc Hlt). Qed.
Theorem C17_first_day : forall cal s today start, sc_week s = [] -> sc_month s = [] ->
  sc_week (next_day cal start s today) = fill_week cal today /\ sc_month (next_day cal start s today) = fill_month cal today.
Proof. intros cal s today start H1 H2. unfold next_day. cbn. rewrite H1, H2. split; reflexivity. Qed.
Theorem C17_daily : forall s today, day_ok s today DAlways = true.
Proof. reflexivity. Qed.
Theorem C17_weekday : forall s today wd, day_ok s today (DWeekday wd) = true <-> weekday_of today = wd.
Proof. intros s today wd. cbn. lia. Qed.
Theorem C17_nth_from_front : forall l n today, 0 <= n ->
  (nth_is l n today = true <-> exists d, nth_error l (Z.to_nat n) = Some d /\ c_ord d = c_ord today).
Proof. intros l n today Hn. unfold nth_is. destruct (0 <=? n) eqn:E; [apply same_day_some|lia]. Qed.
Theorem C17_nth_from_back : forall l n today, n < 0 ->
  (nth_is l n today = true <-> (Z.to_nat (- n) <= List.length l)%nat /\ exists d, nth_error l (List.length l - Z.to_nat (- n)) = Some d /\ c_ord d = c_ord today).
Proof. intros l n today Hn. unfold nth_is. destruct (0 <=? n) eqn:E; [lia|]. destruct (- n <=? _) eqn:B.
  - rewrite same_day_some. intuition lia.
  - split; [discriminate|intros (H & _); lia]. Qed.
Theorem C17_never_in_shorter_bucket : forall l n today,
  (0 <= n /\ Z.of_nat (List.length l) <= n) \/ (n < 0 /\ Z.of_nat (List.length l) < - n) -> nth_is l n today = false.
Proof. intros l n today [[H1 H2]|[H1 H2]]; unfold nth_is.
  - destruct (0 <=? n) eqn:E; [|lia]. assert (N : nth_error l (Z.to_nat n) = None) by (apply nth_error_None; lia). rewrite N. reflexivity.
  - destruct (0 <=? n) eqn:E; [lia|]. destruct (- n <=? _) eqn:B; [lia|reflexivity]. Qed.
(* at most once per day: a bar time fires at the first bar at or after it *)
Theorem C17_once_per_day : forall ranges s n bars, 0 < n -> increasing_from (sc_last_minute s) bars -> (fire_count ranges s n bars <= 1)%nat.
Proof. intros ranges s n bars Hn. revert s. induction bars as [|m t IH]; intros s Hinc; cbn [fire_count]; [lia|]. destruct Hinc as [Hm Ht].
  destruct (should_trigger ranges false false (at_bar s m) n) eqn:F.
  - (* fired at this bar: n <= m, so never again *)
    rewrite trigger_minute in F by assumption. apply andb_prop in F. destruct F as [_ F]. apply Z.leb_le in F.
    rewrite fire_count_none; [reflexivity|assumption..].
  - apply IH. assumption. Qed.
Theorem C17_first_bar_at_or_after : forall ranges s n m, in_ranges ranges n = true -> 0 < n -> sc_last_minute s < n -> n <= m ->
  should_trigger ranges false false (at_bar s m) n = true.
Proof. intros ranges s n m R Hn Hl Hm. rewrite trigger_minute, R by assumption. cbn. lia. Qed.
(* phases: before-trading rules run only in the before-trading slot, bar rules never there; bar functions run under SCHEDULED where
   every order API is allowed, before-trading functions under BEFORE_TRADING where every order API is refused (regenerated table) *)
Theorem C17_before_trading_slot : forall ranges daily bt s, time_ok ranges daily bt s TBeforeTrading = bt.
Proof. reflexivity. Qed.
Theorem C17_bar_rule_not_before_trading : forall ranges daily s n, should_trigger ranges daily true s n = false.
Proof. intros ranges daily s n. unfold should_trigger. destruct (negb (in_ranges ranges n)); reflexivity. Qed.
Theorem C17_phase_of_scheduled_functions : sched_bar_phase = XScheduled /\ sched_before_trading_phase = XBeforeTrading.
Proof. exact sched_phases_ok. Qed.
Theorem C17_may_order_at_bar : forallb (fun name => api_allows api_phases name XScheduled) order_apis = true.
Proof. exact scheduled_may_order. Qed.
Theorem C17_may_not_order_before_trading : forallb (fun name => order_api_guarded api_phases name) order_apis = true.
Proof. exact order_apis_guarded. Qed.

Example C17_example :
  let cal := map (fun o => {| c_ord := o; c_ym := 202001 |}) [737426; 737427; 737430; 737431; 737432; 737433; 737434] in
  let today := {| c_ord := 737430; c_ym := 202001 |} in
  let s := next_day cal 0 {| sc_week := []; sc_month := []; sc_last_minute := 0; sc_current_minute := 0 |} today in
  map c_ord (sc_week s) = [737430; 737431; 737432; 737433; 737434] /\ nth_is (sc_week s) 0 today = true /\ nth_is (sc_week s) (-5) today = true /\
  nth_is (sc_month s) 2 today = true /\ weekday_of today = 0.
Proof. repeat split; vm_compute; reflexivity. Qed.

Print Assumptions C17_week_cache.
Print Assumptions C17_month_cache.
Print Assumptions C17_first_day.
Print Assumptions C17_daily.
Print Assumptions C17_weekday.
Print Assumptions C17_nth_from_front.
Print Assumptions C17_nth_from_back.
Print Assumptions C17_never_in_shorter_bucket.
Print Assumptions C17_once_per_day.
Print Assumptions C17_first_bar_at_or_after.
Print Assumptions C17_before_trading_slot.
Print Assumptions C17_bar_rule_not_before_trading.
Print Assumptions C17_phase_of_scheduled_functions.
Print Assumptions C17_may_order_at_bar.
Print Assumptions C17_may_not_order_before_trading.
