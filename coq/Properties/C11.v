(* C11  Transaction costs follow the published schedule, independent of fill splitting. *)
From RQ Require Import Model.Num Model.Costs Proofs.NumFacts Proofs.CostsFacts.
From Coq Require Import Lqa.
Open Scope Q_scope.

(* However an order is split into fills (any non-empty list of (price, quantity) with non-negative
   commission each), the commissions charged on its trades add up to max(minimum, rate*mult*turnover). *)
Theorem C11_split_independent : forall c fills,
  0 <= sc_min c -> Forall (fun f => 0 <= fill_cost c f) fills -> fills <> [] ->
  run_commission c None fills == qmax (sc_min c) (sc_rate c * sc_mult c * turnover fills).
Proof. intros c fills Hm Hf Hne. rewrite (split_independent c fills Hm Hf Hne). apply qmax_comp; [reflexivity|apply sum_cost_turnover]. Qed.

(* stamp tax: only sells of common stock, at rate in force times the multiplier; the point-in-time rate
   switches on 2023-08-28 *)
Theorem C11_tax : forall c is_cs sell p q,
  trade_tax c is_cs sell p q == if is_cs && sell then (p * q) * sc_tax_rate c * sc_tax_mult c else 0.
Proof. intros. unfold trade_tax. rewrite stock_tax_spec. destruct (is_cs && sell); [qnorm|]; reflexivity. Qed.
Theorem C11_pit_rate : forall d, pit_tax_rate d = if (d <? 20230828)%Z then 1 # 1000 else 1 # 2000.
Proof. reflexivity. Qed.

(* futures: by-money or by-volume schedule, the close-today rate applied to exactly `ct` *)
Theorem C11_futures : forall f is_open p q ct,
  fut_commission f is_open p q ct ==
  fc_cmult f *
  (if fc_by_money f then
     if is_open then p * q * fc_mult f * fc_open f
     else p * (q - ct) * fc_mult f * fc_close f + p * ct * fc_mult f * fc_close_today f
   else if is_open then q * fc_open f else (q - ct) * fc_close f + ct * fc_close_today f).
Proof. intros. unfold fut_commission. destruct (fc_by_money f), is_open; rewrite ?qmul_ok, ?qadd_ok, ?qsub_ok; ring. Qed.

(* fees are never negative (for non-negative prices, quantities, rates) *)
Theorem C11_nonneg_commission : forall c e p q,
  0 <= sc_min c -> 0 <= fill_cost c (p, q) -> (forall r, e = Some r -> 0 <= r) ->
  0 <= fst (trade_commission c e p q) /\ (forall r, snd (trade_commission c e p q) = Some r -> 0 <= r).
Proof.
  (* whatever the sign of what the entry holds: the charge is k - entry when entry < k and 0 otherwise, the new entry 0 or entry - k *)
  intros c e p q Hm _ _. unfold trade_commission.
  set (k := qmul (qmul (qmul p q) (sc_rate c)) (sc_mult c)).
  qcase (qlt_b (cm_read c e) k) H; destruct e as [r0|]; cbn [cm_absent cm_read] in *; cbn [fst snd]; (split; [|intros r [= <-]]); rewrite ?qsub_ok; lra.
Qed.
Theorem C11_nonneg_tax : forall c is_cs sell m,
  0 <= m -> 0 <= sc_tax_rate c -> 0 <= sc_tax_mult c -> 0 <= stock_tax c is_cs sell m.
Proof. intros. rewrite stock_tax_spec. destruct (is_cs && sell); [|lra].
  apply Qmult_le_0_compat; [apply Qmult_le_0_compat|]; assumption. Qed.
Theorem C11_nonneg_futures : forall f is_open p q ct,
  0 <= p -> 0 <= ct -> ct <= q -> 0 <= fc_mult f -> 0 <= fc_open f -> 0 <= fc_close f -> 0 <= fc_close_today f ->
  0 <= fc_cmult f -> 0 <= fut_commission f is_open p q ct.
Proof.
  intros f is_open p q ct Hp Hct Hq Hm Ho Hc Ht Hk. rewrite C11_futures.
  assert (H0 : 0 <= q - ct) by lra. assert (Hq0 : 0 <= q) by lra.
  apply Qmult_le_0_compat; [assumption|].
  (* a product of non-negative factors when opening, a sum of two such products when closing *)
  destruct (fc_by_money f), is_open; [|apply (Qplus_le_compat 0 _ 0 _)| |apply (Qplus_le_compat 0 _ 0 _)];
    repeat apply Qmult_le_0_compat; assumption.
Qed.

(* non-vacuity: a three-fill order below / across / above the 5-yuan minimum *)
Example C11_example :
  let c := {| sc_rate := 1 # 1250; sc_mult := 1; sc_min := 5; sc_tax_rate := 1 # 2000; sc_tax_mult := 1 |} in
  run_commission c None [(10, 100); (10, 300); (10, 2000)] == qmax 5 ((1 # 1250) * 1 * 24000) /\
  run_commission c None [(10, 100)] == 5.
Proof. split; vm_compute; reflexivity. Qed.

(* which schedule a contract follows (FutureInfoStore.get_future_info): its own bundle entry or its underlying's, overridden by the
   configuration's entry for the contract or for the underlying - and an entry keyed by one contract never reaches another contract, so two
   contracts of one underlying differ exactly by their own entries *)
Theorem C11_schedule_frame : forall dc du cc cu c c' u o f, c <> c' ->
  future_schedule dc du (set_at cc c' o) cu c u = future_schedule dc du cc cu c u /\
  future_schedule (set_at dc c' f) du cc cu c u = future_schedule dc du cc cu c u.
Proof. intros dc du cc cu c c' u o f N. unfold future_schedule, set_at. rewrite (proj2 (Nat.eqb_neq c c') N). split; reflexivity. Qed.
Theorem C11_schedule_siblings : forall dc du cc cu c c' u, dc c = None -> dc c' = None -> cc c = None -> cc c' = None ->
  future_schedule dc du cc cu c u = future_schedule dc du cc cu c' u.
Proof. intros dc du cc cu c c' u A B C D. unfold future_schedule, pick. rewrite A, B, C, D. reflexivity. Qed.
Theorem C11_schedule_contract_override : forall dc du cc cu c u f o, pick (dc c) (du u) = Some f -> cc c = Some o ->
  future_schedule dc du cc cu c u = Some (apply_override f o).
Proof. intros dc du cc cu c u f o A B. unfold future_schedule. rewrite A. unfold pick at 1. rewrite B. reflexivity. Qed.
Example C11_schedule_example :
  let f := {| fc_by_money := true; fc_mult := 10; fc_open := 1 # 10000; fc_close := 1 # 10000; fc_close_today := 2 # 10000; fc_cmult := 1 |} in
  let o := {| ov_by_money := Some false; ov_open := Some 3; ov_close := None; ov_close_today := Some 0 |} in
  let du := fun u => if Nat.eqb u 0 then Some f else None in
  let cc := set_at (fun _ => None) 7%nat (Some o) in
  future_schedule (fun _ => None) du cc (fun _ => None) 7 0 = Some (apply_override f o) /\
  future_schedule (fun _ => None) du cc (fun _ => None) 8 0 = Some f /\ fc_by_money (apply_override f o) = false.
Proof. cbv zeta. repeat split. Qed.

Print Assumptions C11_split_independent.
Print Assumptions C11_tax.
Print Assumptions C11_pit_rate.
Print Assumptions C11_futures.
Print Assumptions C11_nonneg_commission.
Print Assumptions C11_nonneg_tax.
Print Assumptions C11_nonneg_futures.
Print Assumptions C11_schedule_frame.
Print Assumptions C11_schedule_siblings.
Print Assumptions C11_schedule_contract_override.
