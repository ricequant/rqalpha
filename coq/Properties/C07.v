(* C07  No look-ahead: the past never depends on future market data (partial: daily accessors are modelled; minute bars and
   attribute access outside the modelled accessors are explored by the two-world runs only). *)
From RQ Require Import Model.Num Model.Calendar Model.View Model.Phases Proofs.ViewFacts Proofs.PhasesFacts Gen.ApiPhases Gen.Calendar.
From Coq Require Import Lia.
Open Scope Z_scope.

(* two market histories that agree up to the moment (day d, phase ph) give the same answer from every accessor *)
Theorem C07_price_board : forall cal ph d h1 h2, 1 <= cnt_lt d cal -> agree ph d h1 h2 -> board_bar cal h1 ph d = board_bar cal h2 ph d.
Proof.
  intros cal ph d h1 h2 Hc H. pose proof (prev_before cal d Hc). destruct ph; cbn [board_bar]; apply (agree_on_bar _ _ _ _ _ _ H); cbn;
    [assumption | split; [reflexivity | exact auction_view_self] | lia..].
Qed.
Theorem C07_bar_dict_and_matcher_bar : forall ph d h1 h2, ph <> VBeforeTrading -> agree ph d h1 h2 -> bar_dict_bar h1 ph d = bar_dict_bar h2 ph d.
Proof.
  intros ph d h1 h2 N H. destruct ph; [contradiction|..]; cbn [bar_dict_bar]; apply (agree_on_bar _ _ _ _ _ _ H); cbn;
    [split; [reflexivity | exact auction_view_self] | lia..].
Qed.
Theorem C07_snapshot : forall cal ph d h1 h2, 1 <= cnt_lt d cal -> agree ph d h1 h2 -> snapshot cal h1 ph d = snapshot cal h2 ph d.
Proof.
  intros cal ph d h1 h2 Hc H. pose proof (prev_before cal d Hc). destruct ph; cbn [snapshot]; apply (agree_on_bar _ _ _ _ _ _ H); cbn;
    [assumption | split; [reflexivity | exact auction_tick_from_view] | lia..].
Qed.
Theorem C07_unmarked_last_price : forall cal ph d h1 h2, 1 <= cnt_lt d cal -> agree ph d h1 h2 ->
  lazy_last_price cal h1 ph d = lazy_last_price cal h2 ph d.
Proof. intros cal ph d h1 h2 Hc H. unfold lazy_last_price. rewrite (C07_price_board cal ph d h1 h2 Hc H). reflexivity. Qed.
(* before the open and in the auction close, high and low of the day are not observable *)
Theorem C07_auction_hides : forall b, nth 1 (auction_view b) None = None /\ nth 2 (auction_view b) None = None /\ nth 3 (auction_view b) None = None.
Proof. cbn. auto. Qed.
Theorem C07_auction_independent : forall b c h l,
  auction_view b = auction_view {| d_dt := d_dt b; d_open := d_open b; d_close := c; d_high := h; d_low := l; d_lu := d_lu b; d_ld := d_ld b;
                                   d_vol := d_vol b; d_turn := d_turn b |}.
Proof. reflexivity. Qed.
(* history windows end at the previous trading day before the open and in the auction, and never read past the visible day *)
Theorem C07_history_ends_yesterday : forall cal ph d n bars is_cs skip, 1 <= cnt_lt d cal -> 0 < n -> ph = VBeforeTrading \/ ph = VOpenAuction ->
  Forall (fun b => h_dt b < d) (history_window bars skip is_cs (visible_day cal ph d) n).
Proof.
  intros cal ph d n bars is_cs skip Hc Hn Hp. eapply Forall_impl; [|apply window_dates_le; exact Hn]. cbn. intros b Hb.
  pose proof (prev_before cal d Hc). destruct Hp; subst ph; cbn [visible_day] in *; lia.
Qed.
(* ... and with price adjustment they depend only on bars up to the visible day and factor rows already in effect *)
Theorem C07_history : forall cal ph d n h1 h2 T1 T2 is_cs k skip adj,
  1 <= cnt_lt d cal -> 0 < n -> hagree (visible_day cal ph d) h1 h2 -> tagree d T1 T2 ->
  api_history cal h1 T1 is_cs k ph d n skip adj = api_history cal h2 T2 is_cs k ph d n skip adj.
Proof.
  intros cal ph d n h1 h2 T1 T2 is_cs k skip adj Hc Hn Hh HT. unfold api_history. rewrite history_end_visible.
  rewrite (history_window_noninterference _ h1 h2 skip is_cs _ n Hh (Z.le_refl _)).
  apply (adjust_noninterference d); [exact HT | lia |].
  eapply Forall_impl; [|apply window_dates_le; exact Hn]. cbn. intros b Hb. pose proof (visible_day_le cal ph d Hc). lia.
Qed.
(* whatever the strategy and the engine do with what they read (any feedback): traces agree up to the cut-off *)
Theorem C07_run : forall (State Obs Data View : Type) (view : Data -> nat -> View) (step : State -> nat -> View -> State * Obs) d1 d2 n m s t0,
  (forall t, (t0 <= t < t0 + n)%nat -> view d1 t = view d2 t) ->
  firstn n (run_from State Obs Data View view step d1 s t0 (n + m)) = firstn n (run_from State Obs Data View view step d2 s t0 (n + m)).
Proof. intros State Obs Data View view step d1 d2 n m s t0 H. rewrite !run_prefix. apply run_noninterference. exact H. Qed.

(* the hypotheses are met by histories that really differ after the cut-off *)
Definition ex_b (d : Z) (c : Q) : dbar := {| d_dt := d; d_open := 10; d_close := c; d_high := c + 1; d_low := 9; d_lu := 11; d_ld := 9; d_vol := 100; d_turn := 1000 |}.
Example C07_example :
  agree VOpenAuction 20200103 [ex_b 20200102 10; ex_b 20200103 (21 # 2); ex_b 20200106 10] [ex_b 20200102 10; ex_b 20200103 (19 # 2); ex_b 20200106 8] /\
  1 <= cnt_lt 20200103 [20200102; 20200103; 20200106] /\
  board_bar [20200102; 20200103; 20200106] [ex_b 20200102 10; ex_b 20200103 (21 # 2)] VBeforeTrading 20200103 = full_view (ex_b 20200102 10).
Proof.
  split; [|split; vm_compute; [discriminate | reflexivity]].
  exists [ex_b 20200102 10], [ex_b 20200103 (21 # 2); ex_b 20200106 10], [ex_b 20200103 (19 # 2); ex_b 20200106 8].
  split; [reflexivity|]. split; [reflexivity|]. right.
  exists (ex_b 20200103 (21 # 2)), (ex_b 20200103 (19 # 2)), [ex_b 20200106 10], [ex_b 20200106 8].
  repeat split; try reflexivity; repeat constructor.
Qed.

(* a handler registered with subscribe_event reads the market through the same phase-dependent accessors as the strategy's own callbacks:
   the handler of BEFORE_TRADING / OPEN_AUCTION events (and of their PRE_ / POST_ brackets) runs in that phase - never in GLOBAL, where the
   accessors show the whole bar of the day - and a handler of an order / trade event keeps the phase in which the event was raised
   (regenerated from Strategy._EVENT_PHASE / wrap_user_event_handler and Executor.EVENT_SPLIT_MAP) *)
Theorem C07_event_handlers_read_through_the_phase :
  (forall e p parts part enclosing, In (e, p) day_phase_events -> lookup e event_split = Some parts -> In part parts ->
     handler_phase handler_phase_table handler_fallback_enclosing part enclosing = p) /\
  (forall ev enclosing, lookup ev handler_phase_table = None ->
     handler_phase handler_phase_table handler_fallback_enclosing ev enclosing = enclosing).
Proof. exact (handler_phase_sound event_split handler_phase_table handler_fallback_enclosing handler_phases_ok). Qed.

(* weekly history with include_now and the bar's mavg / vwap (the code's end-date rules, regenerated in Gen/Calendar.v): before the open
   and in the auction the window ends at the previous trading day, in a minute run also during the day - never at today's complete day bar *)
Theorem C07_weekly_and_mavg_end_yesterday : forall sys_minute ph today prev, pre_open ph = true ->
  gen_weekly_history_end sys_minute true ph today prev = prev /\ gen_mavg_end sys_minute true ph today prev = prev.
Proof. intros m ph c p H. rewrite gen_weekly_history_end_eq, gen_mavg_end_eq. unfold weekly_history_end, mavg_end.
  destruct ph; try discriminate H; destruct m; split; reflexivity. Qed.
Theorem C07_weekly_end_intraday_minute : forall ph today prev, after_close ph = false ->
  gen_weekly_history_end true true ph today prev = prev /\ gen_mavg_end true true ph today prev = prev.
Proof. intros ph c p H. rewrite gen_weekly_history_end_eq, gen_mavg_end_eq. unfold weekly_history_end, mavg_end.
  destruct ph; try discriminate H; split; reflexivity. Qed.

Print Assumptions C07_price_board.
Print Assumptions C07_bar_dict_and_matcher_bar.
Print Assumptions C07_snapshot.
Print Assumptions C07_unmarked_last_price.
Print Assumptions C07_auction_hides.
Print Assumptions C07_auction_independent.
Print Assumptions C07_history_ends_yesterday.
Print Assumptions C07_history.
Print Assumptions C07_run.
Print Assumptions C07_event_handlers_read_through_the_phase.
Print Assumptions C07_weekly_and_mavg_end_yesterday.
Print Assumptions C07_weekly_end_intraday_minute.
