(* C05  Fills execute only at the price the matching rule prescribes. *)
From RQ Require Import Model.Num Model.Position Model.Matcher Proofs.MatcherFacts.
From RQ Require Import Model.Broker Proofs.BrokerFacts Gen.BrokerProg.
Open Scope Q_scope.

Section C05.
  Variables (g : mcfg) (i : mins) (bar auction_bar pb : mbar) (auction : bool) (turnover : Q) (o : morder)
            (fee_of : Q -> Q -> Q -> Q) (occupation : Q -> Q) (avail : Q) (ct_of : Q -> Q).
  Notation M := (match_one g i bar auction_bar pb auction turnover o fee_of occupation avail ct_of).

  (* the reference is the rule's price of the bar it matches in (close / next open / vwap / auction open), valid and positive;
     the trade price is that reference (auction) or the reference moved by the slippage model *)
  Theorem C05_reference : forall price qty ct rc, M = Filled price qty ct rc ->
    exists deal, valid_price (deal_price g i bar auction_bar auction) = Some deal /\ 0 < deal /\
                 price = (if auction then deal else slip_price g i pb o deal).
  Proof. intros price qty ct rc H. apply filled_inv in H as (deal & V & P & _). exists deal.
    destruct (valid_price_some _ _ V). auto. Qed.
  (* slippage only moves the price against the order *)
  Theorem C05_adverse : forall price qty ct rc deal, M = Filled price qty ct rc ->
    valid_price (deal_price g i bar auction_bar auction) = Some deal ->
    0 <= m_slip_rate g -> 0 <= i_tick i -> band_ok pb deal ->
    match mo_side o with Buy => deal <= price | Sell => price <= deal end.
  Proof. intros price qty ct rc deal H V Hr Ht Hb. apply filled_price with (deal := deal) in H as (-> & GL & _); [|exact V].
    destruct auction; [destruct (mo_side o); apply Qle_refl|]. destruct (valid_price_some _ _ V). apply slip_adverse; assumption. Qed.
  (* never outside the day's price-limit band *)
  Theorem C05_band : forall price qty ct rc deal lu ld, M = Filled price qty ct rc ->
    valid_price (deal_price g i bar auction_bar auction) = Some deal ->
    valid_price (b_limit_up pb) = Some lu -> valid_price (b_limit_down pb) = Some ld -> ld <= lu -> ld <= deal <= lu ->
    (m_slip g = LimitPrice -> mo_limit o = true -> ld <= mo_price o <= lu) ->
    ld <= price <= lu.
  Proof. intros price qty ct rc deal lu ld H V U D Hb Hd HL. apply filled_price with (deal := deal) in H as (-> & _); [|exact V].
    destruct auction; [assumption|]. unfold slip_price. destruct (m_slip g); [apply clamp_in_band; assumption..|].
    destruct (mo_limit o); [apply HL; reflexivity|assumption]. Qed.
  (* a limit order fills only with the reference at or better than its limit; with zero slippage the price is the reference *)
  Theorem C05_limit : forall price qty ct rc deal, M = Filled price qty ct rc -> mo_limit o = true ->
    valid_price (deal_price g i bar auction_bar auction) = Some deal ->
    match mo_side o with Buy => deal <= mo_price o | Sell => mo_price o <= deal end.
  Proof. intros price qty ct rc deal H L V. apply filled_price with (deal := deal) in H as (_ & GL & _); [exact (GL L)|exact V]. Qed.
  Theorem C05_zero_slippage : forall price qty ct rc deal, M = Filled price qty ct rc ->
    valid_price (deal_price g i bar auction_bar auction) = Some deal -> m_slip_rate g == 0 -> band_ok pb deal ->
    (m_slip g = LimitPrice -> mo_limit o = false) -> price == deal.
  Proof. intros price qty ct rc deal H V Z Hb HL. apply filled_price with (deal := deal) in H as (-> & _); [|exact V].
    destruct auction; [reflexivity|]. unfold slip_price. destruct (m_slip g); [apply offset_zero; assumption..|].
    rewrite HL by reflexivity. reflexivity. Qed.
  (* no fill from a bar without a valid price *)
  Theorem C05_no_invalid : valid_price (deal_price g i bar auction_bar auction) = None -> M = NoMatch \/ M = Rejected RListedToday.
  Proof. unfold match_one. intros ->. destruct (i_listed_today i); auto. Qed.
End C05.

Example C05_example :
  let g := {| m_matching := CurrentBarClose; m_price_limit := true; m_inactive_limit := true; m_volume_limit := true;
              m_volume_percent := 1 # 4; m_slip := PriceRatio; m_slip_rate := 1 # 100 |} in
  let i := {| i_lot := 100; i_mult := 1; i_tick := 1 # 100; i_listed_today := false |} in
  let bar := {| b_open := Some 10; b_close := Some (109 # 10); b_volume := Some 4000; b_turnover := Some 42000; b_limit_up := Some 11; b_limit_down := Some 9 |} in
  let o := {| mo_side := Buy; mo_effect := Open; mo_limit := false; mo_price := 0; mo_qty := 2500; mo_filled := 0; mo_reserve := 30000 |} in
  match_one g i bar bar bar false 0 o (fun _ _ _ => 5) (fun p => p * 2500) 100000 (fun _ => 0) = Filled 11 1000 0 true.
Proof. vm_compute. reflexivity. Qed.

(* which orders the broker hands to the matcher, when and with which flag: while the auction is on every call carries the auction flag (an order
   resting since earlier in the auction waits for the bar), and the flag is set only on the first call of an order (new ids per submission) *)
Theorem C05_auction_rule : forall fin ops, auction_calls_flagged (brun fin ops).
Proof. exact auction_rule. Qed.
Theorem C05_auction_flag_only_on_first_call : forall fin ops,
  ok_ops fin {| bk_open := []; bk_auction := []; bk_final := []; bk_calls := [] |} ops -> flag_first (bk_calls (brun fin ops)).
Proof. intros fin ops H. exact (inv_first _ (brun_inv fin ops _ binv_init H)). Qed.

(* Tie A: SimulationBroker's methods, regenerated from the source on every run as programs over the primitives of Model/Broker.v
   (Gen/BrokerProg.v): the program of `_match` interprets to the model's matching round, and on_bar / before_trading / after_trading /
   cancel_order / submit_order are the programs the model was written for (an order leaves BOTH books on cancel, final orders are collected
   from BOTH books, the matchers are updated BEFORE the bar's orders are matched, everything still open is rejected at the close ...) *)
Theorem C05_code_broker_is_model :
  (forall fin ph s, interp fin ph gen_match s = bmatch fin s ph) /\
  prog_eqb gen_on_bar expected_on_bar && prog_eqb gen_before_trading expected_before_trading && prog_eqb gen_after_trading expected_after_trading &&
  prog_eqb gen_cancel expected_cancel && prog_eqb gen_submit expected_submit && listeners_as_expected = true.
Proof. split; [exact gen_match_is_model|exact gen_programs_as_modelled]. Qed.

Print Assumptions C05_reference.
Print Assumptions C05_auction_rule.
Print Assumptions C05_auction_flag_only_on_first_call.
Print Assumptions C05_adverse.
Print Assumptions C05_band.
Print Assumptions C05_limit.
Print Assumptions C05_zero_slippage.
Print Assumptions C05_no_invalid.
Print Assumptions C05_code_broker_is_model.
