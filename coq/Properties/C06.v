(* C06  Matching honours price limits, liquidity limits and lot sizes. *)
From RQ Require Import Model.Num Model.Position Model.Matcher Model.MatcherRun Proofs.NumFacts Proofs.MatcherFacts Proofs.MatcherRunFacts Gen.MatcherCap.
Open Scope Q_scope.

Section C06.
  Variables (g : mcfg) (i : mins) (bar auction_bar pb : mbar) (auction : bool) (turnover : Q) (o : morder)
            (fee_of : Q -> Q -> Q -> Q) (occupation : Q -> Q) (avail : Q) (ct_of : Q -> Q).
  Notation M := (match_one g i bar auction_bar pb auction turnover o fee_of occupation avail ct_of).
  Notation vol := (if auction then b_volume auction_bar else b_volume bar).
  Notation unfilled := (qsub (mo_qty o) (mo_filled o)).

  (* with price_limit on, no buy fills at or above limit-up and no sell at or below limit-down *)
  Theorem C06_limit_up_down : forall price qty ct rc deal, M = Filled price qty ct rc ->
    valid_price (deal_price g i bar auction_bar auction) = Some deal -> m_price_limit g = true ->
    match mo_side o with Buy => ge_opt deal (b_limit_up pb) = false | Sell => le_opt deal (b_limit_down pb) = false end.
  Proof. intros price qty ct rc deal H V PL. apply filled_price with (deal := deal) in H as (_ & _ & GP); [exact (GP PL)|exact V]. Qed.
  (* with inactive_limit on, nothing fills in a bar with zero volume *)
  Theorem C06_inactive : forall price qty ct rc, M = Filled price qty ct rc -> m_inactive_limit g = true -> forall v, vol = Some v -> ~ v == 0.
  Proof. intros price qty ct rc H IL v Ev Z. apply filled_inv in H as (_ & _ & _ & _ & IA & _).
    unfold inactive in IA. rewrite IL, Ev in IA. apply qeq_b_false in IA. contradiction. Qed.
  (* every fill is positive, at most the remainder, whole lots or the entire remainder, and - with volume_limit on - keeps the
     bar's accumulated turnover within round(volume * percent) *)
  Theorem C06_fill_shape_and_cap : forall price qty ct rc, M = Filled price qty ct rc -> 0 < unfilled -> 0 < i_lot i ->
    0 < qty /\ qty <= unfilled /\ (qty == unfilled \/ exists k : Z, qty == zq k * i_lot i) /\
    (m_volume_limit g = true -> forall v, vol = Some v -> turnover + qty <= zq (qround_even (qmul v (m_volume_percent g)))).
  Proof. intros price qty ct rc H Hu Hl. apply fill_quantity_shape in H as (P & L & S & C); [|assumption..].
    repeat split; try assumption. intros VL v Ev. eapply Qle_trans; [exact (C VL v Ev)|apply lot_cap_le, Hl]. Qed.
  (* a market order never stays partially open; a limit order is never cancelled by the matcher after a fill *)
  Theorem C06_market_no_rest : forall price qty ct rc, M = Filled price qty ct rc -> mo_limit o = false -> rc = negb (qeq_b (qsub unfilled qty) 0).
  Proof. intros price qty ct rc H L. apply filled_inv in H as (_ & _ & _ & _ & _ & _ & _ & ->). rewrite L. reflexivity. Qed.
  Theorem C06_limit_rests : forall price qty ct rc, M = Filled price qty ct rc -> mo_limit o = true -> rc = false.
  Proof. intros price qty ct rc H L. apply filled_inv in H as (_ & _ & _ & _ & _ & _ & _ & ->). rewrite L. reflexivity. Qed.
End C06.

(* the cap is a whole number of lots inside round(volume * percent) - turnover *)
Theorem C06_cap_bound : forall g i turnover v, 0 < i_lot i ->
  volume_cap g i v turnover <= zq (qround_even (qmul v (m_volume_percent g))) - turnover.
Proof. intros g i turnover v Hl. eapply Qle_trans; [apply volume_cap_bound_lots, Hl|]. apply Qplus_le_l, lot_cap_le, Hl. Qed.

(* the matcher as a state machine (Model/MatcherRun.v): for EVERY sequence of matcher calls and updates, the quantity traded in an
   instrument since the last update (added up from the trades, as a listener would) equals the matcher's booked turnover and never
   exceeds round(volume * fraction) - whatever the orders, their interleaving across instruments and accounts, and the outcomes of
   the other calls.  `governed` only asks that the calls on k see the same bar volume and fraction, an open remainder and a lot size. *)
Theorem C06_total_per_bar : forall k v pct ops, Forall (governed k v pct) ops ->
  fills_of k (ms_fills (mrun ops)) == tget (ms_turnover (mrun ops)) k /\
  fills_of k (ms_fills (mrun ops)) <= Qmax 0 (zq (qround_even (qmul v pct))).
Proof. intros k v pct. apply total_fills_per_bar. intros a t price qty ct rc G M.
  eapply Qle_trans; [exact (governed_capped G M)|]. destruct (G eq_refl) as (_ & <- & _ & _ & HL). apply lot_cap_le, HL. Qed.

(* ... and, as the property words it, never exceeds that fraction ROUNDED DOWN TO WHOLE LOTS - also after an odd-lot liquidation has made
   the bar's turnover odd (D34: the code used to round only what was left, so 150 odd shares + 600 could reach 750 of an allowance of 700) *)
Theorem C06_total_per_bar_whole_lots : forall k v pct lot ops, Forall (governed_lots k v pct lot) ops ->
  fills_of k (ms_fills (mrun ops)) <= Qmax 0 (qmul (zq (Qfloor (qdiv (zq (qround_even (qmul v pct))) lot))) lot).
Proof. intros k v pct lot ops F. refine (proj2 (total_fills_per_bar k _ _ _ ops F)). intros a t price qty ct rc [G GL] M.
  pose proof (governed_capped G M) as C. rewrite lot_cap_eq in C. destruct (G eq_refl) as (_ & <- & _). rewrite <- (GL eq_refl). exact C. Qed.
Example C06_odd_turnover_example :
  let g := {| m_matching := CurrentBarClose; m_price_limit := false; m_inactive_limit := false; m_volume_limit := true;
              m_volume_percent := 1 # 4; m_slip := PriceRatio; m_slip_rate := 0 |} in
  let i := {| i_lot := 100; i_mult := 1; i_tick := 1 # 100; i_listed_today := false |} in
  lot_cap g i 3000 = 700 /\ volume_cap g i 3000 150 = 500 /\ volume_cap g i 3000 0 = 700.
Proof. repeat split; vm_compute; reflexivity. Qed.

(* non-vacuity of the whole-lot statement: an odd-lot sale of 150 shares (a full liquidation), then an oversized market buy against a bar of
   3000 shares at 25 % (allowance 750, in whole lots 700): 150 + 500 are traded - inside 700, where the old arithmetic reached 750 *)
Example C06_whole_lots_example :
  let g := {| m_matching := CurrentBarClose; m_price_limit := false; m_inactive_limit := false; m_volume_limit := true;
              m_volume_percent := 1 # 4; m_slip := PriceRatio; m_slip_rate := 0 |} in
  let i := {| i_lot := 100; i_mult := 1; i_tick := 1 # 100; i_listed_today := false |} in
  let b := {| b_open := Some 10; b_close := Some 10; b_volume := Some 3000; b_turnover := Some 30000; b_limit_up := Some 11; b_limit_down := Some 9 |} in
  let a sd q := {| a_g := g; a_i := i; a_bar := b; a_abar := b; a_pb := b; a_auction := false;
                   a_o := {| mo_side := sd; mo_effect := Open; mo_limit := false; mo_price := 0; mo_qty := q; mo_filled := 0; mo_reserve := 0 |};
                   a_fee := fun _ _ _ => 0; a_occ := fun _ => 0; a_avail := 0; a_ct := fun _ => 0 |} in
  let ops := [MMatch 3 (a Sell 150); MMatch 3 (a Buy 10000000)] in
  Forall (governed_lots 3%nat 3000 (1 # 4) 100) ops /\ fills_of 3 (ms_fills (mrun ops)) == 650 /\ tget (ms_turnover (mrun ops)) 3 = 650.
Proof. cbv zeta. split; [|split; vm_compute; reflexivity].
  repeat constructor; intros _; (repeat split; try reflexivity); vm_compute; reflexivity. Qed.

(* non-vacuity: three market orders of 500 / 400 / 300 shares against a bar of 4250 shares at 25 % (cap 1000 after lot rounding):
   500 + 400 + 100 are traded, the booked turnover is 1000, and an update clears it *)
Example C06_total_example :
  let g := {| m_matching := CurrentBarClose; m_price_limit := true; m_inactive_limit := true; m_volume_limit := true;
              m_volume_percent := 1 # 4; m_slip := PriceRatio; m_slip_rate := 0 |} in
  let i := {| i_lot := 100; i_mult := 1; i_tick := 1 # 100; i_listed_today := false |} in
  let b := {| b_open := Some 10; b_close := Some 10; b_volume := Some 4250; b_turnover := Some 42500; b_limit_up := Some 11; b_limit_down := Some 9 |} in
  let a q := {| a_g := g; a_i := i; a_bar := b; a_abar := b; a_pb := b; a_auction := false;
                a_o := {| mo_side := Buy; mo_effect := Open; mo_limit := false; mo_price := 0; mo_qty := q; mo_filled := 0; mo_reserve := 0 |};
                a_fee := fun _ _ _ => 0; a_occ := fun _ => 0; a_avail := 0; a_ct := fun _ => 0 |} in
  let ops := [MMatch 3 (a 500); MMatch 3 (a 400); MMatch 7 (a 200); MMatch 3 (a 300)] in
  Forall (governed 3%nat 4250 (1 # 4)) ops /\ tget (ms_turnover (mrun ops)) 3 = 1000 /\ fills_of 3 (ms_fills (mrun ops)) == 1000 /\
  tget (ms_turnover (mrun (ops ++ [MUpdate]))) 3 = 0.
Proof. cbv zeta. split; [|split; [|split]]; try (vm_compute; reflexivity).
  repeat constructor; intros _; (repeat split; try reflexivity); vm_compute; reflexivity. Qed.

Example C06_example :
  let g := {| m_matching := CurrentBarClose; m_price_limit := true; m_inactive_limit := true; m_volume_limit := true;
              m_volume_percent := 1 # 4; m_slip := PriceRatio; m_slip_rate := 0 |} in
  let i := {| i_lot := 100; i_mult := 1; i_tick := 1 # 100; i_listed_today := false |} in
  volume_cap g i 4250 300 = 700 /\ volume_cap g i 4250 1000 = 0.
Proof. split; vm_compute; reflexivity. Qed.

(* Tie A: the liquidity-cap block of DefaultBarMatcher.match, regenerated from the source on every run (Gen/MatcherCap.v), is the model's
   fill_amount / volume_cap - for a known volume and for a missing (NaN) one - and the turnover is booked right after the fill, cleared by update *)
Theorem C06_code_cap_is_model : forall g i v turnover unfilled is_market,
  gen_fill (m_volume_limit g) true v (m_volume_percent g) turnover (i_lot i) unfilled is_market = model_fill g i (Some v) turnover unfilled is_market /\
  gen_fill (m_volume_limit g) false v (m_volume_percent g) turnover (i_lot i) unfilled is_market = model_fill g i None turnover unfilled is_market.
Proof. intros. split; [apply gen_fill_eq|apply gen_fill_nan_eq]. Qed.
Theorem C06_code_turnover_bookkeeping : turnover_booked_right_after_the_fill = true /\ update_clears_turnover = true.
Proof. exact turnover_bookkeeping_ok. Qed.

Print Assumptions C06_limit_up_down.
Print Assumptions C06_inactive.
Print Assumptions C06_fill_shape_and_cap.
Print Assumptions C06_market_no_rest.
Print Assumptions C06_limit_rests.
Print Assumptions C06_cap_bound.
Print Assumptions C06_total_per_bar.
Print Assumptions C06_total_per_bar_whole_lots.
Print Assumptions C06_code_cap_is_model.
Print Assumptions C06_code_turnover_bookkeeping.
