(* C20  History and calendar APIs return exactly the right window, correctly adjusted. *)
From RQ Require Import Model.Num Model.Calendar Proofs.CalendarFacts.
From Coq Require Import Lia.

(* previous and next trading date are inverse on trading days (calendar strictly increasing) *)
Theorem C20_next_prev : forall l k, sinc l -> (0 < k < length l)%nat ->
  next_trading_date l (prev_trading_date l (nth k l 0%Z) 1) 1 = nth k l 0%Z.
Proof. intros l k H Hk. rewrite prev_at, next_at by (assumption || lia). f_equal. lia. Qed.
Theorem C20_prev_next : forall l k, sinc l -> (S k < length l)%nat ->
  prev_trading_date l (next_trading_date l (nth k l 0%Z) 1) 1 = nth k l 0%Z.
Proof. intros l k H Hk. rewrite next_at, prev_at by (assumption || lia). f_equal. lia. Qed.
(* saturation at the calendar ends, stated explicitly *)
Theorem C20_prev_saturates : forall l d, cnt_ltn d l = O -> prev_trading_date l d 1 = nthz 0 l.
Proof. intros l d H. unfold prev_trading_date, cnt_lt. rewrite H. reflexivity. Qed.
Theorem C20_next_saturates : forall l d, cnt_len d l = length l -> next_trading_date l d 1 = lastz l.
Proof. intros l d H. unfold next_trading_date, cnt_le, lenz. rewrite H, (proj2 (Z.ltb_lt _ _)) by lia. reflexivity. Qed.
(* get_trading_dates is the sorted calendar slice between its bounds; day counts equal slice lengths *)
Theorem C20_slice : forall l a b, sinc l -> trading_dates l a b = filter (fun x => (a <=? x)%Z && (x <=? b)%Z) l.
Proof. exact trading_dates_is_slice. Qed.
Theorem C20_count : forall l a b, sinc l -> lenz (trading_dates l a b) = Z.max 0 (count_trading_dates l a b).
Proof. intros l a b _. unfold trading_dates, count_trading_dates, slicez, lenz, cnt_lt, cnt_le. rewrite firstn_length, skipn_length.
  pose proof (cnt_len_le_len b l). lia. Qed.
(* the history window: the last N bars dated <= the end date, nothing after it, in order *)
Theorem C20_window : forall dts bars dt n, (0 < n)%Z -> map h_dt bars = dts -> sinc dts ->
  let w := slicez (fst (window_bounds dts dt n)) (snd (window_bounds dts dt n)) bars in
  w = skipn (cnt_len dt dts - Z.to_nat n) (firstn (cnt_len dt dts) bars) /\
  (forall b, In b w -> (h_dt b <= dt)%Z) /\ lenz w = Z.min n (cnt_le dt dts).
Proof. intros dts bars dt n Hn <- _ w. subst w. rewrite window_slice by lia. split; [reflexivity|]. split.
  - apply Forall_forall, Forall_skipn, firstn_cnt_len_le.
  - unfold lenz, cnt_le. rewrite skipn_length, firstn_length. pose proof (cnt_len_le_len dt (map h_dt bars)) as L. rewrite map_length in L. lia. Qed.
(* the end date: previous trading day before the open and in the auction, the current bar inside handle_bar (daily) *)
Theorem C20_end_before_open : forall sys_minute inc cal prev ph, ph = HBeforeTrading \/ ph = HOpenAuction ->
  history_end sys_minute inc ph cal prev = (prev, false).
Proof. intros sys_minute inc cal prev ph [->| ->]; unfold history_end; destruct sys_minute, inc; reflexivity. Qed.
Theorem C20_end_daily_bar : forall inc cal prev ph, ph = HOnBar \/ ph = HScheduled \/ ph = HAfterTrading ->
  history_end false inc ph cal prev = (cal, false).
Proof. intros inc cal prev ph [->|[->| ->]]; unfold history_end; destruct inc; reflexivity. Qed.
Theorem C20_end_minute_day_bars : forall cal prev ph, ph = HOnBar \/ ph = HScheduled -> history_end true false ph cal prev = (prev, false).
Proof. intros cal prev ph [->| ->]; reflexivity. Qed.
(* adjustment: prices scale by F(bar date) / F(base), volumes inversely; bars at the base factor are unadjusted *)
Theorem C20_adjust : forall bars table adj orig, adj <> AdjNone ->
  (forall d, ~ factor_for table d == 0) -> ~ adj_base table adj orig == 0 ->
  Forall2 (adj_rel table (adj_base table adj orig)) bars (adjust_window bars table adj false orig).
Proof. intros bars table adj orig Hn _ Hb. unfold adjust_window. destruct adj; [| |contradiction]; cbn [adj_base] in Hb |- *;
  (destruct (forallb _ bars) eqn:A; [apply adjust_same; [|apply forallb_forall]; assumption|apply adjust_map]). Qed.
Theorem C20_most_recent_unadjusted : forall table base b b', ~ base == 0 -> adj_rel table base b b' ->
  factor_for table (h_dt b) == base -> h_price b' == h_price b /\ h_volume b' == h_volume b.
Proof. intros table base b b' Hb (_ & P & V) E. rewrite P, V, E. split; field; assumption. Qed.
Theorem C20_adjust_none : forall bars table orig k, adjust_window bars table AdjNone k orig = bars.
Proof. reflexivity. Qed.

Example C20_example :
  let cal := [20200102; 20200103; 20200106; 20200107; 20200110]%Z in
  prev_trading_date cal 20200106 1 = 20200103%Z /\ next_trading_date cal 20200104 1 = 20200106%Z /\
  trading_dates cal 20200103 20200108 = [20200103; 20200106; 20200107]%Z /\ count_trading_dates cal 20200103 20200108 = 3%Z /\
  prev_trading_date cal 20200102 1 = 20200102%Z /\ next_trading_date cal 20200110 3 = 20200110%Z.
Proof. repeat split; vm_compute; reflexivity. Qed.

Print Assumptions C20_next_prev.
Print Assumptions C20_prev_next.
Print Assumptions C20_prev_saturates.
Print Assumptions C20_next_saturates.
Print Assumptions C20_slice.
Print Assumptions C20_count.
Print Assumptions C20_window.
Print Assumptions C20_end_before_open.
Print Assumptions C20_end_daily_bar.
Print Assumptions C20_end_minute_day_bars.
Print Assumptions C20_adjust.
Print Assumptions C20_most_recent_unadjusted.
Print Assumptions C20_adjust_none.
