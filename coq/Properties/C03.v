(* C03  Net value, units and returns accounting is consistent and flow-neutral. *)
From RQ Require Import Model.Num Model.Position Model.Account Model.AccountRun Model.Portfolio Proofs.NumFacts Proofs.PositionFacts Proofs.AccountFacts Proofs.PortfolioFacts.
From Coq Require Import Lqa.
Open Scope Q_scope.

Theorem C03_nav_times_units : forall p tv, ~ pf_units p == 0 -> unit_net_value p tv * pf_units p == tv.
Proof. intros p tv H. unfold unit_net_value. qnorm. field. assumption. Qed.
(* deposits and withdrawals (immediate or pending: both raise total value at once, C01_value_deposit / C03_pending_counts_at_once)
   change units but never the unit net value *)
Theorem C03_flow_neutral : forall p tv0 tv1, ~ pf_units p == 0 -> ~ tv0 == 0 -> ~ tv1 == 0 ->
  unit_net_value (pf_deposit p tv0 tv1) tv1 == unit_net_value p tv0.
Proof. intros p tv0 tv1 Hu Ht Ht1. unfold pf_deposit, unit_net_value. cbn [pf_units]. unfold unit_net_value. qnorm. field. repeat split; assumption. Qed.
(* the hypothesis above is the code's own guard: a flow into a portfolio whose unit net value is 0 is refused before anything changes *)
Theorem C03_flow_refused_when_worthless : forall p tv0 tv1, qeq_b (unit_net_value p tv0) 0 = true -> pf_deposit_checked p tv0 tv1 = None.
Proof. intros p tv0 tv1 H. unfold pf_deposit_checked. rewrite H. reflexivity. Qed.
Theorem C03_flow_accepted_otherwise : forall p tv0 tv1, qeq_b (unit_net_value p tv0) 0 = false -> pf_deposit_checked p tv0 tv1 = Some (pf_deposit p tv0 tv1).
Proof. intros p tv0 tv1 H. unfold pf_deposit_checked. rewrite H. reflexivity. Qed.
Theorem C03_pending_counts_at_once : forall g a d x, total_value g (astep g a (EDepositPending d x)) == total_value g a + x.
Proof. intros. rewrite !total_value_eq. cbn [astep deposit_pending a_total_cash a_pos a_liab a_pending]. rewrite sum_pending_insert. ring. Qed.
Theorem C03_pending_arrival_neutral : forall g a today, total_value g (astep g a (EArrive today)) == total_value g a.
Proof. exact value_arrive. Qed.
(* nothing else changes units: the latch keeps them (all other kernel steps do not mention the portfolio record) *)
Theorem C03_latch_keeps_units : forall p tv, pf_units (latch p tv) = pf_units p.
Proof. reflexivity. Qed.
(* each day's return is closing nav over previous close minus one; compounding reproduces total returns *)
Theorem C03_daily_return : forall p tv_prev tv, daily_returns (latch p tv_prev) tv == unit_net_value p tv / unit_net_value p tv_prev - 1.
Proof. intros. unfold daily_returns, latch, unit_net_value. cbn [pf_units pf_static]. qnorm. reflexivity. Qed.
Theorem C03_compounding : forall navs prev, ~ prev == 0 -> Forall (fun n => ~ n == 0) navs -> compound prev navs == lastq prev navs / prev.
Proof. exact compound_telescopes. Qed.
(* the day's P&L of one entry equals its change of value since the previous close: what the entry was worth then, recovered from
   today's state as value (equity + cash moved) less P&L, is left alone by every fill and every mark, because a fill moves the value
   (trade_value) and the P&L by the distance of its price to the mark, a mark (mark_value) both by the quantity held - provided the P&L
   counts a unit of quantity as the value does (a stock entry has multiplier 1 and is long) *)
Definition opening_value (c : pcfg) (prev : Q) (s : pos * Q) : Q := equity c (fst s) + snd s - entry_daily_pnl c prev (fst s).
Lemma daily_pnl_eq c prev p :
  entry_daily_pnl c prev p == (p_qty p * p_last p - p_lold p * prev - p_trade_cost p) * (pc_mult c * dirf c) - p_tcost p.
Proof. unfold entry_daily_pnl. rewrite trading_pnl_eq, position_pnl_eq. ring. Qed.
Lemma day_step c prev s e : pc_mult c * dirf c == vmult c -> (is_future c -> forall t, e = DTrade t -> 0 <= p_qty (fst s) /\ 0 < t_qty t) ->
  opening_value c prev (dstep c s e) == opening_value c prev s.
Proof. intros Hk Hf. unfold opening_value. rewrite !daily_pnl_eq, Hk. destruct e as [t|price].
  - cbn [dstep fst snd]. rewrite trade_qty, trade_last, trade_lold, trade_trade_cost, trade_tcost, qadd_ok.
    pose proof (trade_value c (fst s) t (fun K => Hf K t eq_refl)). lra.
  - pose proof (mark_value c (fst s) (fst (dstep c s (DMark price))) eq_refl eq_refl eq_refl) as M.
    cbn [dstep fst snd p_qty p_last p_lold p_trade_cost p_tcost] in *. lra.
Qed.
Lemma day_run c prev evs : pc_mult c * dirf c == vmult c -> forall s, (is_future c -> 0 <= p_qty (fst s) /\ fwf_run c s evs) ->
  opening_value c prev (fold_left (dstep c) evs s) == opening_value c prev s.
Proof. intros Hk. induction evs as [|e t IH]; intros s W; cbn [fold_left]; [reflexivity|]. rewrite IH, day_step; [reflexivity|exact Hk|..].
  - intros K tr ->. destruct (W K) as (Hq & We & _). split; [exact Hq|apply (We tr eq_refl)].
  - (* futures: a close within the quantity held leaves it non-negative *)
    intros K. destruct (W K) as (Hq & We & Wt). split; [|exact Wt]. destruct e as [tr|price]; [|exact Hq]. cbn [dstep fst]. rewrite trade_qty.
    destruct (We tr eq_refl) as [Ht Hc]. unfold sgn. destruct (t_effect tr); try specialize (Hc ltac:(discriminate)); lra.
Qed.

(* daily P&L of an entry (position + trading - costs) = its change of value since the previous close, for every day of
   trades and marks; stock entries (partial: dividend / split days are covered by C12, interest by the account) *)
Theorem C03_pnl_decomposition_stock_partial : forall c p evs prev_close,
  is_stock c -> pc_mult c == 1 -> pc_long c = true -> p_trade_cost p == 0 -> p_tcost p == 0 ->
  Forall (fun e => forall t, e = DTrade t -> t_effect t <> CloseToday) evs ->
  let s := drun c p evs in
  entry_daily_pnl c prev_close (fst s) == (equity c (fst s) + snd s) - (prev_close * p_lold p + receivable p).
Proof.
  intros c p evs prev_close K Hm Hl Htc Hf _ s.
  assert (Hk : pc_mult c * dirf c == vmult c) by (unfold vmult, dirf; rewrite K, Hl, Hm; reflexivity).
  assert (W : is_future c -> 0 <= p_qty p /\ fwf_run c (p, 0) evs) by (unfold is_future; rewrite K; discriminate).
  pose proof (day_run c prev_close evs Hk (p, 0) W) as D. fold (drun c p evs) in D. fold s in D. unfold opening_value in D. cbn [fst snd] in D.
  unfold vmult in Hk. rewrite K in Hk. rewrite (daily_pnl_eq c prev_close p), (stock_equity c p K), Hk, Htc, Hf in D. lra.
Qed.
Theorem C03_pnl_decomposition_future_partial : forall c p evs,
  is_future c -> 0 <= p_qty p -> p_trade_cost p == 0 -> p_tcost p == 0 -> p_lold p == p_qty p ->
  fwf_run c (p, 0) evs ->
  let s := drun c p evs in
  entry_daily_pnl c (p_avg p) (fst s) == equity c (fst s) + snd s.
Proof.
  intros c p evs K Hq Htc Hf Hl W s.
  assert (Hk : pc_mult c * dirf c == vmult c) by (unfold vmult; rewrite K; reflexivity).
  pose proof (day_run c (p_avg p) evs Hk (p, 0) (fun _ => conj Hq W)) as D. fold (drun c p evs) in D. fold s in D. unfold opening_value in D. cbn [fst snd] in D.
  rewrite (daily_pnl_eq c (p_avg p) p), (future_equity c p K), Htc, Hf, Hl in D. lra.
Qed.

Example C03_example :
  let p := {| pf_units := 100000; pf_static := 1 |} in
  unit_net_value (pf_deposit p 110000 115000) 115000 == 11 # 10 /\ compound 1 [11 # 10; 12 # 10; 9 # 10] == 9 # 10.
Proof. split; vm_compute; reflexivity. Qed.

Print Assumptions C03_nav_times_units.
Print Assumptions C03_flow_neutral.
Print Assumptions C03_flow_refused_when_worthless.
Print Assumptions C03_flow_accepted_otherwise.
Print Assumptions C03_pending_counts_at_once.
Print Assumptions C03_pending_arrival_neutral.
Print Assumptions C03_latch_keeps_units.
Print Assumptions C03_daily_return.
Print Assumptions C03_compounding.
Print Assumptions C03_pnl_decomposition_stock_partial.
Print Assumptions C03_pnl_decomposition_future_partial.
