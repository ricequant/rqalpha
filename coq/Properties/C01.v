(* C01  Stock account ledger: cash, holdings and total value are conserved. *)
From RQ Require Import Model.Num Model.Position Model.Account Model.AccountRun Proofs.NumFacts Proofs.PositionFacts Proofs.AccountFacts.
From Coq Require Import Lqa.
Open Scope Q_scope.

(* For EVERY list of kernel events (fills, reservations, marks, deposits, financing, dividends, splits, delistings,
   settlements, fees) the account's total cash is the starting cash plus the ledger written from the events:
   -cost of buys +proceeds of sells -fees +flows +dividends paid +delisting payouts -management fees. *)
Theorem C01_cash_ledger : forall g evs a, a_total_cash (arun g a evs) == a_total_cash a + audit_cash g a evs.
Proof. exact cash_ledger. Qed.

(* a stock fill moves cash by exactly -(price*qty)-fees / +(price*qty)-fees and the holding by the signed quantity *)
Theorem C01_trade_cash : forall c p t, is_stock c -> t_effect t <> CloseToday ->
  snd (pos_apply_trade c p t) == - (sgn t) * (t_price t * t_qty t) - t_fee t.
Proof. intros c p t H _. exact (stock_trade_cash c p t H). Qed.
Theorem C01_trade_quantity : forall c p t, is_stock c ->
  p_qty (fst (pos_apply_trade c p t)) == p_qty p + sgn t * t_qty t.
Proof. intros c p t _. apply trade_qty. Qed.

(* total value: value appears or disappears only through price movement, flows and fees *)
Theorem C01_value_trade : forall g a i t ord c p,
  nth_error (a_pos a) i = Some (c, p) ->
  (pc_kind c = StockPos -> t_effect t <> CloseToday) ->
  (pc_kind c = FuturePos -> 0 <= p_qty p /\ 0 < t_qty t) ->
  total_value g (astep g a (ETrade i t ord)) ==
  total_value g a + sgn t * (p_last p - t_price t) * t_qty t * (match pc_kind c with StockPos => 1 | FuturePos => pc_mult c * dirf c end) - t_fee t.
Proof.
  intros g a i t ord c p H _ Hf. cbn [astep]. unfold acc_apply_trade. rewrite H, (value_set_entry g a i c p _ _ _ _ H), qadd_ok.
  pose proof (trade_value c p t Hf). fold (vmult c). lra.
Qed.
Theorem C01_value_mark : forall g a i price c p,
  nth_error (a_pos a) i = Some (c, p) ->
  total_value g (astep g a (EMark i price)) ==
  total_value g a + p_qty p * (price - p_last p) * (match pc_kind c with StockPos => 1 | FuturePos => pc_mult c * dirf c end).
Proof.
  intros g a i price c p H. cbn [astep]. unfold mark, with_pos. rewrite H, (value_set_entry g a i c p _ _ _ _ H).
  rewrite (mark_value c p (Build_pos _ _ _ _ _ _ _ price _) eq_refl eq_refl eq_refl). unfold vmult. cbn [p_last]. ring.
Qed.
Theorem C01_value_deposit : forall g a x, total_value g (astep g a (EDeposit x)) == total_value g a + x.
Proof. intros. rewrite !total_value_eq. cbn [astep deposit_now with_cash a_total_cash a_pos a_liab a_pending]. rewrite qadd_ok. ring. Qed.
Theorem C01_value_pending_arrives : forall g a today, total_value g (astep g a (EArrive today)) == total_value g a.
Proof. exact value_arrive. Qed.
Theorem C01_value_mgmt_fee : forall g a fee, total_value g (astep g a (EMgmt fee)) == total_value g a - fee.
Proof. intros. rewrite !total_value_eq. cbn [astep charge_mgmt a_total_cash a_pos a_liab a_pending]. rewrite qsub_ok. ring. Qed.
(* reserved cash moves only by order events; reservations never touch total cash *)
Theorem C01_reserve_separate : forall g a e, (forall en, e <> ELiquidate en) -> a_frozen (astep g a e) == a_frozen a + frozen_contrib e.
Proof.
  intros g a e _. destruct e as [i t ord|r|r|i price|x|d x|today|x|x| |i|i dps payable|i today|i r|i cr|i s|i|fee|en];
    cbn [astep frozen_contrib]; rewrite ?on_entry_frozen; try (rewrite Qplus_0_r; reflexivity).
  - unfold acc_apply_trade. destruct (nth_error (a_pos a) i) as [[c p]|]; apply qsub_ok.
  - apply qadd_ok.
  - apply qsub_ok.
  - unfold mark. destruct (nth_error (a_pos a) i) as [[c p]|]; rewrite Qplus_0_r; reflexivity.
  - unfold accrue_interest. destruct (qlt_b 0 (a_liab a)); rewrite Qplus_0_r; reflexivity.
  - unfold forced_liquidation. destruct (qle_b (total_value g a) 0 && en); rewrite Qplus_0_r; reflexivity.
Qed.

Example C01_example :
  let c := {| pc_kind := StockPos; pc_long := true; pc_mult := 1; pc_tplus := true |} in
  let p0 := {| p_qty := 0; p_old := 0; p_lold := 0; p_avg := 0; p_trade_cost := 0; p_tcost := 0; p_non_closable := 0; p_last := 10; p_recv := None |} in
  let a := {| a_total_cash := 100000; a_frozen := 0; a_liab := 0; a_pending := []; a_mgmt_fees := 0; a_pos := [(c, p0)] |} in
  let g := {| ac_future := false; ac_fin_rate := 0; ac_margin_rate := fun _ => 0 |} in
  let evs := [ETrade 0 {| t_effect := Open; t_price := 10; t_qty := 1000; t_fee := 8 |} None; EMark 0 11;
              ETrade 0 {| t_effect := Close; t_price := 11; t_qty := 400; t_fee := 9 |} None; EDeposit 500] in
  a_total_cash (arun g a evs) == 100000 - 10000 - 8 + 4400 - 9 + 500 /\ total_value g (arun g a evs) == 100000 + 1000 - 17 + 500.
Proof. split; vm_compute; reflexivity. Qed.

Print Assumptions C01_cash_ledger.
Print Assumptions C01_trade_cash.
Print Assumptions C01_trade_quantity.
Print Assumptions C01_value_trade.
Print Assumptions C01_value_mark.
Print Assumptions C01_value_deposit.
Print Assumptions C01_value_pending_arrives.
Print Assumptions C01_value_mgmt_fee.
Print Assumptions C01_reserve_separate.
