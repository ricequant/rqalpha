(* C18  The analysis report equals what actually happened in the run (partial: pandas / rqrisk / float rounding are runtime). *)
From RQ Require Import Model.Num Model.Portfolio Model.Analyser Model.ModLife Proofs.PortfolioFacts Proofs.ModLifeFacts.
From Coq Require Import Lqa.
Open Scope Q_scope.

(* exactly one portfolio record per settled trading day (the number of settlements is the number of trading days: C08) *)
Theorem C18_one_record_per_day : forall days, length (collect_daily days) = length days /\ map ds_date (collect_daily days) = map ds_date days.
Proof. intros days. unfold collect_daily. rewrite map_length, map_map. split; reflexivity. Qed.
(* total return = final unit net value - 1 = compounded daily returns - 1 *)
Theorem C18_total_return : forall navs, Forall (fun n => ~ n == 0) navs -> total_return_of navs == compound 1 navs - 1.
Proof. intros navs H. unfold total_return_of. rewrite (compound_telescopes navs 1); [field|lra|assumption]. Qed.
(* benchmark return = ratio of benchmark closes: its daily returns compound like a series of net values *)
Lemma prod1_bench_returns closes : forall prev, prod1 (bench_returns prev closes) = compound prev closes.
Proof. induction closes as [|c t IH]; intros prev; cbn; [|rewrite IH]; reflexivity. Qed.
Theorem C18_benchmark_return : forall closes prev, ~ prev == 0 -> Forall (fun c => ~ c == 0) closes ->
  prod1 (bench_returns prev closes) == lastq prev closes / prev.
Proof. intros closes prev. rewrite prod1_bench_returns. apply compound_telescopes. Qed.
(* ... also when the benchmark is given with a weight ("id:w", {id: w}): the weighted combination of one member is the member, and only the
   proportions of the weights matter *)
Lemma bench_day_single w r : ~ w == 0 -> bench_day [w] [r] == r.
Proof. intros H. unfold bench_day. cbn [wsum qsum]. field. lra. Qed.
Lemma bench_series_single w rs : ~ w == 0 -> prod1 (bench_series [w] (transpose1 rs)) == prod1 rs.
Proof. intros H. induction rs as [|r t IH]; cbn [bench_series transpose1 map prod1] in *; [reflexivity|]. rewrite IH, (bench_day_single w r H). reflexivity. Qed.
Theorem C18_weighted_benchmark_return : forall w closes prev, ~ w == 0 -> ~ prev == 0 -> Forall (fun c => ~ c == 0) closes ->
  prod1 (bench_series [w] (transpose1 (bench_returns prev closes))) == lastq prev closes / prev.
Proof. intros w closes prev Hw. rewrite (bench_series_single w _ Hw), prod1_bench_returns. apply compound_telescopes. Qed.
Lemma wsum_scale k ws xs : wsum (map (Qmult k) ws) xs == k * wsum ws xs.
Proof. revert xs. induction ws as [|w t IH]; intros xs; cbn [map wsum]; [ring|]. destruct xs as [|x xs]; [ring|rewrite IH; ring]. Qed.
Lemma qsum_scale k ws : qsum (map (Qmult k) ws) == k * qsum ws.
Proof. induction ws as [|w t IH]; cbn [map qsum]; [ring|rewrite IH; ring]. Qed.
Theorem C18_benchmark_weights_are_proportions : forall k ws xs, ~ k == 0 -> ~ qsum ws == 0 -> bench_day (map (Qmult k) ws) xs == bench_day ws xs.
Proof. intros k ws xs Hk Hs. unfold bench_day. rewrite wsum_scale, qsum_scale. field. split; assumption. Qed.
(* a run that failed returns no report *)
Theorem C18_failed_run_no_report : forall mods n f, f <> NoFault -> In (LResult true) (run_mods mods n f) -> False.
Proof. exact failed_run_has_no_report. Qed.

Example C18_example : prod1 (bench_returns 1000 [1010; 990; 1020]) == 1020 / 1000 /\ total_return_of [101 # 100; 99 # 100] == -1 # 100.
Proof. split; vm_compute; reflexivity. Qed.

Print Assumptions C18_one_record_per_day.
Print Assumptions C18_total_return.
Print Assumptions C18_benchmark_return.
Print Assumptions C18_weighted_benchmark_return.
Print Assumptions C18_benchmark_weights_are_proportions.
Print Assumptions C18_failed_run_no_report.
