(* C10  Positions never go negative: closable quantity, T+1 and close-today rules. *)
From RQ Require Import Model.Num Model.Position Model.Closable Proofs.NumFacts Proofs.PositionFacts Proofs.ClosableFacts.
From Coq Require Import Lqa.
Open Scope Q_scope.

(* For every sequence of opening fills, closing submissions (validated), fills of resting closes, drops and day
   roll-overs: quantities stay non-negative and every resting close stays covered. *)
Theorem C10_invariant : forall g evs s, CInv g s -> cwf_run g s evs -> CInv g (fold_left (cstep g) evs s).
Proof. intros g evs. induction evs as [|e t IH]; cbn; intros s I W; [assumption|]. destruct W as [We Wt]. apply IH; [apply cstep_inv; assumption|assumption]. Qed.
Theorem C10_never_negative : forall g s, CInv g s -> 0 <= cs_qty s /\ 0 <= cs_old s /\ 0 <= closable g s /\ 0 <= today_closable s.
Proof. intros g s (Ho & Hoq & Hnc & Hc & Ht & Hw & Hs). rewrite closable_eq. unfold today_closable. repeat split; lra. Qed.
(* shares bought on day T are not closable on day T (T+1 on) *)
Theorem C10_t1 : forall g s q, cc_stock g = true -> cc_t1 g = true -> cc_tplus g = true ->
  closable g (cstep g s (COpenFill q)) == closable g s.
Proof. intros g s q S T P. unfold closable. cbn. rewrite S, T, P. cbn. ring. Qed.
(* ordinary closes consume yesterday's quantity before today's; close-today leaves yesterday's alone *)
Theorem C10_old_first : forall c p t, t_effect t = Close -> p_old (fst (pos_apply_trade c p t)) == p_old p - qmin (t_qty t) (p_old p).
Proof. intros c p t E. unfold pos_apply_trade, stock_apply_trade, future_apply_trade, base_apply_trade. rewrite E.
  destruct (pc_kind c); cbn [fst p_old]; qnorm; reflexivity. Qed.
Theorem C10_close_today_keeps_old : forall c p t, is_future c -> t_effect t = CloseToday -> p_old (fst (pos_apply_trade c p t)) = p_old p.
Proof. intros c p t H E. unfold pos_apply_trade, future_apply_trade. rewrite H, E. reflexivity. Qed.
(* a rejected close changes nothing *)
Theorem C10_reject_noop : forall g s id today q, validate_close g s today q = false -> cstep g s (CSubmit id today q) = s.
Proof. intros g s id today q H. cbn. rewrite H. reflexivity. Qed.

(* the state the unrepaired validator admitted (CLOSE 8 resting on 8 lots of which 3 are today's, then CLOSE_TODAY 3)
   is rejected by the model of the repaired one *)
Example C10_example :
  let g := {| cc_stock := false; cc_t1 := false; cc_tplus := false |} in
  let s := {| cs_qty := 8; cs_old := 5; cs_nc := 0; cs_book := [{| co_id := 1; co_today := false; co_unfilled := 8 |}] |} in
  validate_close g s true 3 = false /\ validate_close g {| cs_qty := 8; cs_old := 5; cs_nc := 0; cs_book := [] |} true 3 = true.
Proof. split; vm_compute; reflexivity. Qed.

Print Assumptions C10_invariant.
Print Assumptions C10_never_negative.
Print Assumptions C10_t1.
Print Assumptions C10_old_first.
Print Assumptions C10_close_today_keeps_old.
Print Assumptions C10_reject_noop.
