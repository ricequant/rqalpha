(* C08  Trading-day lifecycle and clocks: each phase once, in order, settled once. *)
From RQ Require Import Model.Num Model.Calendar Model.EventLoop Model.Phases Proofs.CalendarFacts Proofs.EventLoopFacts Proofs.PhasesFacts Gen.ApiPhases Gen.Listeners.
From Coq Require Import Lia.
Open Scope Z_scope.

(* the days of a run are exactly the trading days of the requested range *)
Theorem C08_days : forall cal a b, sinc cal -> run_days cal a b = filter (fun x => (a <=? x) && (x <=? b)) cal.
Proof. exact trading_dates_is_slice. Qed.
(* daily frequency: for every strictly increasing list of trading days the published phase events are exactly
   BT OA BAR AT per day, one SETTLEMENT between a day's AT and the next day's BT and one after the last day *)
Theorem C08_daily_run : forall days, sinc days -> days <> [] -> exec_run (daily_events days) (lastz days) = spec_days None days.
Proof. intros days Hs Hne. unfold exec_run. destruct (exec_daily days None [] Hs I) as [A B].
  destruct days as [|d t]; [contradiction|]. rewrite A in B |- *. rewrite Z.eqb_refl. exact B. Qed.
Theorem C08_settled_once_per_day : forall days, sinc days -> days <> [] -> count_settle (exec_run (daily_events days) (lastz days)) = List.length days.
Proof. intros days Hs Hne. rewrite C08_daily_run, spec_settlements by assumption. lia. Qed.
Theorem C08_settlement_after_last_day : forall days prev, days <> [] -> exists l, spec_days prev days = l ++ [PSettlement (lastz days)].
Proof. intros days. induction days as [|d t IH]; intros prev H; [contradiction|]. cbn [spec_days]. destruct t as [|d' t'].
  - rewrite !app_assoc. eexists. reflexivity.
  - destruct (IH (Some d)) as [l Hl]; [discriminate|]. rewrite Hl, !app_assoc. eexists. reflexivity. Qed.
Theorem C08_clocks_monotone : forall days prev lo, sinc days -> (match days with d :: _ => fst lo < d | [] => True end) ->
  mono lo (times (spec_days prev days)).
Proof. induction days as [|d t IH]; intros prev lo Hs Hlo; cbn [spec_days].
  - destruct prev; exact I.
  - rewrite times_app. replace (times (match prev with Some l => [PSettlement l] | None => [] end)) with (@nil (Z * Z)) by (destruct prev; reflexivity).
    cbn [app times pev_time mono]. unfold le_time; cbn [fst snd].
    repeat split; try lia. apply IH; [apply (sinc_tail _ _ Hs)|]. destruct t; [exact I | apply (sinc_lb _ _ Hs), in_eq]. Qed.
(* minute frequency: whatever universe changes happen during the day, the bars come in strictly increasing time order *)
Theorem C08_minute_bars_increasing : forall fuel d minutes_of changed, (forall k, sinc (minutes_of k)) -> forall k last btflag,
  sinc (bars_of (minute_day fuel d minutes_of changed k last btflag)) /\
  forall x, In x (bars_of (minute_day fuel d minutes_of changed k last btflag)) -> ge_last last x.
Proof.
  intros fuel d minutes_of changed Hm. induction fuel as [|f IH]; intros k last btflag; cbn [minute_day]; [split; [constructor | intros x []]|].
  destruct (scan_bars d (changed k) (minutes_of k) (Hm k) last btflag) as [A B].
  destruct (snd (fst (scan d (changed k) last btflag (minutes_of k)))) as [m|]; rewrite bars_of_app; [|split; [exact A | intros x Hx; apply B, Hx]].
  (* the bars before the break are below its minute m, the bars after it are not: the next evaluation skips what is earlier than m *)
  destruct (IH (S k) (Some m) (snd (scan d (changed k) last btflag (minutes_of k)))) as [A' B']. apply sinc_app in A as (A1 & _ & A2). split.
  - apply sinc_app. split; [exact A1 | split; [exact A'|]]. intros x y Hx Hy. specialize (A2 x m Hx (in_eq _ _)). specialize (B' y Hy). cbn in B'. lia.
  - intros x Hx. apply in_app_or in Hx as [Hx|Hx]; [apply B, in_or_app; left; exact Hx|].
    specialize (B' x Hx). destruct (B m (in_or_app _ _ _ (or_intror (in_eq _ _)))) as [C _]. destruct last; cbn in *; lia.
Qed.
(* every phase event is published as PRE_E, E, POST_E (regenerated EVENT_SPLIT_MAP) *)
Theorem C08_brackets : event_split_brackets event_split = true.
Proof. exact event_split_ok. Qed.
(* every order-placing API is refused during init, before_trading and after_trading (regenerated phase table) *)
Theorem C08_order_phases : forallb (fun name => order_api_guarded api_phases name) order_apis = true.
Proof. exact order_apis_guarded. Qed.
(* ... also from a handler registered with subscribe_event: the handler of every part (PRE_E, E, POST_E) of a day-phase event runs in
   that phase whatever is on the phase stack, an event without an entry keeps the enclosing phase (regenerated Strategy._EVENT_PHASE and
   wrap_user_event_handler), and no order or cash-flow API is admitted in a handler of a before_trading / after_trading event *)
Theorem C08_handler_phases :
  (forall e p parts part enclosing, In (e, p) day_phase_events -> lookup e event_split = Some parts -> In part parts ->
     handler_phase handler_phase_table handler_fallback_enclosing part enclosing = p) /\
  (forall ev enclosing, lookup ev handler_phase_table = None ->
     handler_phase handler_phase_table handler_fallback_enclosing ev enclosing = enclosing).
Proof. exact (handler_phase_sound event_split handler_phase_table handler_fallback_enclosing handler_phases_ok). Qed.
Theorem C08_handlers_cannot_order_when_closed :
  forallb (fun name => forallb (fun ev => negb (api_allows api_phases name (handler_phase handler_phase_table handler_fallback_enclosing ev XGlobal)))
                               closed_phase_events) (order_apis ++ flow_apis) = true.
Proof. exact handlers_cannot_order_when_closed. Qed.

(* an event published on the bus reaches every system listener unless one of them returns a truthy value (EventBus.publish_event); no
   system listener of an event a back-test publishes can return a value (regenerated inventory of every add_listener / prepend_listener call, Gen/Listeners.v),
   and the listeners the lifecycle relies on - the strategy's callbacks, the broker's and the accounts' phase handlers - are registered *)
Theorem C08_event_reaches_every_listener : forall (E : Type) (ls : list (E -> bool)) (e : E),
  (forall l, In l ls -> l e = false) -> delivered ls e = List.length ls.
Proof. intros E ls e. induction ls as [|l t IH]; intros H; cbn; [reflexivity|]. rewrite (H l (or_introl eq_refl)). f_equal.
  apply IH. intros x Hx. apply H. right. exact Hx. Qed.
Theorem C08_no_listener_swallows_events :
  forallb (fun r => negb (snd r) || in_strs (snd (fst (fst r))) external_events) system_listeners = true /\
  forallb (fun le => existsb (fun r => String.eqb (fst (fst (fst r))) (fst le) && String.eqb (snd (fst (fst r))) (snd le)) system_listeners)
          expected_phase_listeners = true.
Proof. split; [exact no_listener_returns_a_value|exact phase_listeners_present]. Qed.

Example C08_example :
  exec_run (daily_events [20200102; 20200103]) 20200103 =
  [PBeforeTrading 20200102 0; POpenAuction 20200102 0; PBar 20200102 900; PAfterTrading 20200102 930; PSettlement 20200102;
   PBeforeTrading 20200103 0; POpenAuction 20200103 0; PBar 20200103 900; PAfterTrading 20200103 930; PSettlement 20200103] /\
  bars_of (minute_day 5 1 (fun _ => [571; 572; 573; 574]) (fun k m => (k =? 0)%nat && (m =? 573)) 0 None true) = [571; 572; 573; 574].
Proof. split; vm_compute; reflexivity. Qed.

Print Assumptions C08_days.
Print Assumptions C08_daily_run.
Print Assumptions C08_settled_once_per_day.
Print Assumptions C08_settlement_after_last_day.
Print Assumptions C08_clocks_monotone.
Print Assumptions C08_minute_bars_increasing.
Print Assumptions C08_brackets.
Print Assumptions C08_order_phases.
Print Assumptions C08_handler_phases.
Print Assumptions C08_handlers_cannot_order_when_closed.
Print Assumptions C08_event_reaches_every_listener.
Print Assumptions C08_no_listener_swallows_events.
