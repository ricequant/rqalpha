(* C16  Pre-trade validation rejects untradable orders without side effects. *)
From RQ Require Import Model.Num Model.Position Model.Closable Model.Validators Model.Phases Proofs.NumFacts Gen.ApiPhases.
From Coq Require Import Lqa.
Open Scope Q_scope.

Lemma first_some_none l : first_some l = None <-> Forall (fun r => r = None) l.
Proof. induction l as [|[v|] t IH]; cbn; [split; constructor|split; [discriminate|inversion 1; discriminate]|].
  rewrite IH. split; [constructor; auto|inversion 1; auto]. Qed.
Lemma guard_none (b : bool) (r : option vreason) : (if b then r else None) = None <-> (b = true -> r = None).
Proof. destruct b; intuition congruence. Qed.

(* an order is submitted iff every enabled validator passes it *)
Theorem C16_verdict : forall g x o,
  validate g x o = None <->
  (v_position g = true -> position_check x o = None) /\ (v_price g = true -> price_check x o = None) /\
  (v_trading g = true -> trading_check x o = None) /\ (v_cash g = true -> cash_check x o = None) /\
  (v_self g = true -> self_trade_check x o = None).
Proof. intros. unfold validate. rewrite first_some_none, !Forall_cons_iff, !guard_none. intuition. Qed.
Theorem C16_first_veto_wins : forall g x o r, v_position g = true -> position_check x o = Some r -> validate g x o = Some r.
Proof. intros g x o r G H. unfold validate, first_some. cbn. rewrite G, H. reflexivity. Qed.
Theorem C16_price_veto_next : forall g x o r, (v_position g = true -> position_check x o = None) -> v_price g = true -> price_check x o = Some r ->
  validate g x o = Some r.
Proof. intros g x o r P G H. unfold validate, first_some. cbn. rewrite G, H. destruct (v_position g); [rewrite (P eq_refl)|]; reflexivity. Qed.
Theorem C16_not_listed : forall x o, vx_is_index x = false -> vx_listed x = false -> trading_check x o = Some VNotListing.
Proof. intros x o I L. unfold trading_check. rewrite I, L. reflexivity. Qed.
Theorem C16_suspended : forall x o, vx_listed x = true -> vx_is_cs x = true -> vx_suspended x = true -> trading_check x o = Some VSuspended.
Proof. intros x o L C S. unfold trading_check. rewrite L, C, S. cbn. destruct (vx_is_index x); reflexivity. Qed.
Theorem C16_limit_band : forall x o lu ld, vo_limit o = true -> vx_limit_up x = Some lu -> vx_limit_down x = Some ld ->
  (price_check x o = None <-> ld <= vo_price o /\ vo_price o <= lu).
Proof. intros x o lu ld L U D. unfold price_check. rewrite L, U, D. cbn [negb].
  qcase (qlt_b lu (vo_price o)) A; [split; [discriminate|lra]|].
  qcase (qlt_b (vo_price o) ld) B; [split; [discriminate|lra]|split; [split; assumption|reflexivity]]. Qed.
Theorem C16_cash : forall x o, vo_effect o = Open -> (cash_check x o = None <-> vx_cost x <= vx_cash x).
Proof. intros x o E. unfold cash_check. rewrite E. qcase (qle_b (vx_cost x) (vx_cash x)) C; [split; auto|split; [discriminate|lra]]. Qed.
Theorem C16_closable : forall x o, vo_effect o = Close ->
  (position_check x o = None <-> vo_qty o <= closable (fst (vx_closable x)) (snd (vx_closable x))).
Proof. intros x o E. unfold position_check, validate_close. rewrite E.
  qcase (qle_b (vo_qty o) (closable (fst (vx_closable x)) (snd (vx_closable x)))) C; [split; auto|split; [discriminate|lra]]. Qed.
(* a call in a phase where ordering is forbidden is refused (regenerated phase table) *)
Theorem C16_forbidden_phase : forallb (fun name => order_api_guarded api_phases name) order_apis = true.
Proof. exact order_apis_guarded. Qed.

Print Assumptions C16_verdict.
Print Assumptions C16_first_veto_wins.
Print Assumptions C16_price_veto_next.
Print Assumptions C16_not_listed.
Print Assumptions C16_suspended.
Print Assumptions C16_limit_band.
Print Assumptions C16_cash.
Print Assumptions C16_closable.
Print Assumptions C16_forbidden_phase.
