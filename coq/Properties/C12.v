(* C12  Corporate actions, delisting and expiry never change account value when applied. *)
From RQ Require Import Model.Num Model.Position Model.Account Model.AccountRun Proofs.NumFacts Proofs.PositionFacts Proofs.AccountFacts.
From Coq Require Import Lqa.
Open Scope Q_scope.

(* ex-date: value moves from the marked price into the receivable (no earlier receivable outstanding) *)
Theorem C12_dividend_ex : forall g a i dps payable c p, nth_error (a_pos a) i = Some (c, p) -> pc_kind c = StockPos ->
  total_value g (astep g a (EBook i dps payable)) == total_value g a - receivable p.
Proof. intros g a i dps payable c p H K. cbn [astep]. rewrite (value_on_entry g a i _ c p H). cbn [fst snd].
  rewrite (book_closure_neutral c p dps payable K). ring. Qed.
(* payable date: the receivable - record-date quantity x dividend per share - becomes cash *)
Theorem C12_dividend_pay : forall g a i today c p, nth_error (a_pos a) i = Some (c, p) -> pc_kind c = StockPos ->
  total_value g (astep g a (EPay i today)) == total_value g a.
Proof. intros g a i today c p H K. cbn [astep]. rewrite (value_on_entry g a i _ c p H).
  pose proof (pay_neutral c p today 1 K). lra. Qed.
Theorem C12_dividend_amount : forall p today lot d v, p_recv p = Some (d, v) -> d = today ->
  snd (fst (bt_pay p today false lot)) = v /\ p_recv (fst (fst (bt_pay p today false lot))) = None.
Proof. intros p today lot d v E ->. unfold bt_pay. rewrite E, Z.eqb_refl. cbn. split; reflexivity. Qed.
Theorem C12_receivable_is_record_quantity : forall p dps payable,
  p_recv (bt_book p (Some (dps, payable))) = Some (payable, qmul (p_qty p) dps).
Proof. reflexivity. Qed.
(* selling between record and payable date does not touch the receivable *)
Theorem C12_sell_between : forall c p t, is_stock c -> p_recv (fst (pos_apply_trade c p t)) = p_recv p.
Proof. intros c p t _. apply trade_recv. Qed.
(* split with an integral result: quantity x ratio, prices / ratio, value unchanged *)
Theorem C12_split : forall g a i r k c p, nth_error (a_pos a) i = Some (c, p) -> pc_kind c = StockPos -> 0 < r -> qmul (p_qty p) r == zq k ->
  total_value g (astep g a (ESplit i r)) == total_value g a.
Proof. intros g a i r k c p H K Hr Hk. cbn [astep]. rewrite (value_on_entry g a i _ c p H). cbn [fst snd].
  rewrite (split_neutral c p r k K Hr Hk). ring. Qed.
Theorem C12_split_scales : forall p r, p_avg (bt_split p (Some r)) = qdiv (p_avg p) r /\ p_last (bt_split p (Some r)) = qdiv (p_last p) r.
Proof. split; reflexivity. Qed.
(* delisting with payout at the last price *)
Theorem C12_delist_payout : forall g a i c p, nth_error (a_pos a) i = Some (c, p) -> pc_kind c = StockPos ->
  total_value g (astep g a (EDelist i true)) == total_value g a.
Proof. intros g a i c p H K. cbn [astep]. rewrite (value_on_entry g a i _ c p H).
  pose proof (delist_neutral c p K). lra. Qed.
(* futures expiry after the daily mark *)
Theorem C12_expiry : forall g a i c p, nth_error (a_pos a) i = Some (c, p) -> pc_kind c = FuturePos -> p_avg p == p_last p ->
  total_value g (astep g a (EExpire i)) == total_value g a.
Proof. intros g a i c p H K _. exact (value_expire g a i c p H K). Qed.
(* conversion into a successor at the published ratio: the holding's cash refund equals what the successor trade costs,
   and the successor is worth the old holding *)
Theorem C12_conversion : forall p ratio cr price amount, 0 < ratio -> qeq_b (p_qty p) 0 = false ->
  snd (stock_delist p (Some ratio) cr) = Some (price, amount) ->
  snd (fst (stock_delist p (Some ratio) cr)) == price * amount /\ amount * (p_last p / ratio) == p_last p * p_qty p.
Proof. intros p ratio cr price amount Hr Hq H. unfold stock_delist in *. rewrite Hq in *. cbn [fst snd] in *.
  injection H as <- <-. qnorm. split; field; lra. Qed.

(* the finding D10 kept visible: a split whose result is not integral is rounded to the nearest share; value changes *)
Example C12_fractional_split_refuted :
  exists p r, ~ (p_last (bt_split p (Some r)) * p_qty (bt_split p (Some r)) == p_last p * p_qty p).
Proof. exists {| p_qty := 150; p_old := 150; p_lold := 150; p_avg := 10; p_trade_cost := 0; p_tcost := 0; p_non_closable := 0; p_last := 23; p_recv := None |}, (115 # 100).
  vm_compute. intro H. discriminate H. Qed.
(* the finding D11 kept visible: a second book closure before the first payable date overwrites the receivable *)
Example C12_overlapping_dividend_refuted :
  exists p, receivable p > 0 /\ receivable (bt_book p (Some (1 # 10, 20200110%Z))) < receivable p + qmul (p_qty p) (1 # 10).
Proof. exists {| p_qty := 1000; p_old := 1000; p_lold := 1000; p_avg := 10; p_trade_cost := 0; p_tcost := 0; p_non_closable := 0; p_last := 10; p_recv := Some (20200108%Z, 500) |}.
  split; vm_compute; reflexivity. Qed.

(* the pre-open purge of emptied holdings (Account._on_before_trading) drops nothing of value: every dropped entry has equity 0, and an
   emptied holding whose dividend is still receivable is never dropped - it has to survive until the payable date *)
Theorem C12_purge_drops_no_value : forall entries, purgeable entries = true -> Forall (fun e => equity (fst e) (snd e) == 0) entries.
Proof. intros entries H. apply Forall_forall. intros e He. apply qeq_b_true.
  exact (proj2 (andb_prop _ _ (proj1 (forallb_forall _ _) H e He))). Qed.
Theorem C12_purge_keeps_receivable : forall c p d v, pc_kind c = StockPos -> p_recv p = Some (d, v) -> ~ v == 0 -> p_qty p == 0 ->
  purgeable [(c, p)] = false.
Proof. intros c p d v K R V Z. unfold purgeable. cbn [forallb fst snd]. rewrite andb_true_r, (proj2 (qeq_b_true _ _) Z).
  apply qeq_b_false. rewrite (stock_equity c p K). unfold receivable. rewrite R, Z. intros H. apply V. lra. Qed.

Print Assumptions C12_dividend_ex.
Print Assumptions C12_dividend_pay.
Print Assumptions C12_dividend_amount.
Print Assumptions C12_receivable_is_record_quantity.
Print Assumptions C12_sell_between.
Print Assumptions C12_split.
Print Assumptions C12_split_scales.
Print Assumptions C12_delist_payout.
Print Assumptions C12_expiry.
Print Assumptions C12_conversion.
Print Assumptions C12_purge_drops_no_value.
Print Assumptions C12_purge_keeps_receivable.
