(* C09  Buying power: orders are covered by cash, reserved cash is conserved. *)
From RQ Require Import Model.Num Model.Account Model.Reserve Proofs.ReserveFacts.
From RQ Require Import Model.Broker Gen.BrokerProg.
From RQ Require Import Model.Matcher Model.Order Proofs.OrderFacts Proofs.ComposeFacts Proofs.ComposeManyFacts.
From Coq Require Import Lqa.
Open Scope Q_scope.

(* For every protocol-conforming interleaving of submissions, fills and terminal announcements of any number of
   orders, reserved cash equals the sum over open orders of the unfilled fraction of their initial reserve. *)
Theorem C09_frozen_invariant : forall evs s, RInv s -> wf_run s evs -> RInv (fold_left rstep evs s).
Proof. exact frozen_invariant. Qed.
Theorem C09_frozen_nonneg : forall s, RInv s -> 0 <= rs_frozen s.
Proof. exact frozen_nonneg. Qed.
Theorem C09_frozen_zero_when_no_open : forall s, RInv s -> rs_book s = [] -> rs_frozen s == 0.
Proof. exact frozen_zero_when_no_open. Qed.
(* pro-rata release by fills, the remainder by cancellation / rejection / expiry *)
Theorem C09_release_trade : forall o q, 0 < r_qty o -> release_trade (Some (r_qty o, r_reserve o)) q == q / r_qty o * r_reserve o.
Proof. exact release_trade_share. Qed.
Theorem C09_release_terminal : forall o, 0 < r_qty o -> release_terminal (r_qty o) (r_filled o) (r_reserve o) == rshare o.
Proof. exact release_terminal_share. Qed.
(* under current-bar matching without slippage a fill of an opening order is covered by what it releases:
   price <= frozen price and pro-rata fees <= estimate  =>  price*q + fee <= released reserve *)
Theorem C09_no_overdraft_step : forall price fprice q oq fee est reserve,
  0 < oq -> 0 < q -> q <= oq -> price <= fprice -> 0 <= fprice -> fee <= q / oq * est ->
  reserve == fprice * oq + est -> price * q + fee <= q / oq * reserve.
Proof. intros price fprice q oq fee est reserve Hoq Hq _ Hp _ Hfee Hr. rewrite Hr.
  assert (E : q / oq * (fprice * oq + est) == fprice * q + q / oq * est) by (field; lra). rewrite E.
  assert (price * q <= fprice * q) by (apply Qmult_le_compat_r; lra). lra. Qed.

(* one order alone is the interleaving in which every input goes to the same id *)
Lemma single_run qtys reserves id ins : forall os,
  (ins_ok (os id) ins -> gins_ok os (map (pair id) ins)) /\
  gevs qtys reserves os (map (pair id) ins) = revs_of id (qtys id) (reserves id) (snd (orun (os id) ins)) /\
  gfinal os (map (pair id) ins) id = fst (orun (os id) ins) /\ forall k, k <> id -> gfinal os (map (pair id) ins) k = os k.
Proof.
  induction ins as [|i t IH]; intros os; cbn [map gins_ok gevs gfinal orun ins_ok fst snd]; [auto|].
  destruct (IH (ostep_all os (id, i))) as (A & B & C & D). unfold ostep_all, ComposeManyFacts.upd in *. cbn [fst snd] in *.
  rewrite Nat.eqb_refl in *. rewrite B, C, revs_of_app. split; [tauto|]. split; [reflexivity|]. split; [reflexivity|].
  intros k Hk. rewrite (D k Hk). rewrite (proj2 (Nat.eqb_neq k id) Hk). reflexivity.
Qed.

(* composition with C04: the protocol hypothesis `wf_run` above is not an assumption about the broker - the per-order lifecycle machine of
   Model/Order.v (whose correspondence with SimulationBroker is C04's) emits, for ANY inputs the broker can produce, events that form a
   conforming run; so over an order's whole life reserved cash is the unfilled fraction of its reserve and nothing stays reserved once it is
   final.  (`ins_ok`: fills positive and within the remainder - proved of the matcher in C06 - and day boundaries in order - C08.) *)
Theorem C09_protocol_discharged_by_lifecycle : forall id qty reserve ins, 0 < qty -> 0 <= reserve -> ins_ok (fresh_order qty) ins ->
  let s0 := {| rs_frozen := 0; rs_book := [] |} in
  let o := fst (orun (fresh_order qty) ins) in
  let evs := revs_of id qty reserve (snd (orun (fresh_order qty) ins)) in
  wf_run s0 evs /\ RInv (fold_left rstep evs s0) /\
  (os_status o <> Active -> rs_frozen (fold_left rstep evs s0) == 0) /\
  (os_status o = Active -> rs_frozen (fold_left rstep evs s0) == (qty - os_filled o) / qty * reserve).
Proof.
  intros id qty reserve ins Hq Hr Hin s0 o evs.
  destruct (single_run (fun _ => qty) (fun _ => reserve) id ins (fun _ => fresh_order qty)) as (Gin & Ev & Fin & Oth).
  pose proof (grun_fresh (fun _ => qty) (fun _ => reserve) (map (pair id) ins) (fun _ => Hq) (fun _ => Hr) (Gin Hin)) as G.
  cbv beta zeta in G. rewrite Ev in G. fold s0 evs in G. destruct G as [W (I & N & H)]. split; [exact W|]. split; [exact I|].
  (* every other id is still fresh, so at most the entry of `id` is in the book *)
  destruct I as [-> _]. rewrite (book_only id _ N) by (intros k Hk; destruct (H k) as (_ & _ & E); rewrite (Oth k Hk) in E; exact E).
  destruct (H id) as (_ & _ & E). rewrite Fin in E. fold o in E. unfold entry_ok in E. split.
  - intros NA. destruct (os_status o); try (rewrite E; reflexivity). congruence.
  - intros A. rewrite A in E. destruct E as (f & -> & Ef). unfold rtotal, rshare, mk. cbn [r_qty r_filled r_reserve]. rewrite Ef. ring.
Qed.
(* ... and for ANY number of orders and ANY interleaving of their lives (a list of (order id, input) pairs): the whole event stream the
   account hears is a conforming run, reserved cash is the sum over the open orders of the unfilled fraction of their reserves, never
   negative, and zero - with an empty book - whenever no order is open.  No protocol assumption is left in C09. *)
Theorem C09_every_interleaving : forall qtys reserves l, (forall k, 0 < qtys k) -> (forall k, 0 <= reserves k) ->
  let os0 := fun k => fresh_order (qtys k) in
  let s0 := {| rs_frozen := 0; rs_book := [] |} in
  gins_ok os0 l ->
  let evs := gevs qtys reserves os0 l in
  let sf := fold_left rstep evs s0 in
  wf_run s0 evs /\ RInv sf /\ 0 <= rs_frozen sf /\
  ((forall k, os_status (gfinal os0 l k) <> Active) -> rs_book sf = [] /\ rs_frozen sf == 0).
Proof. exact interleaved_lifecycles_discharge_the_protocol. Qed.
Example C09_interleaving_example :
  let qtys := fun k : nat => 1000 in let reserves := fun k : nat => 10008 in
  let l := [(1%nat, ISubmit false); (2%nat, ISubmit false); (1%nat, IMatch (Filled 10 300 0 false) 3); (2%nat, ICancel);
            (1%nat, IAfterTrading)] in
  gins_ok (fun k => fresh_order (qtys k)) l /\
  gevs qtys reserves (fun k => fresh_order (qtys k)) l =
    [RPendingNew (mk 1 1000 10008 0); RPendingNew (mk 2 1000 10008 0); RTrade 1 300; RTerminal 2; RTerminal 1].
Proof. cbv zeta. split; [|vm_compute; reflexivity]. vm_compute. repeat split; discriminate. Qed.

(* non-vacuity: submitted in the auction, a partial fill of 300, a bar without a match, a second fill whose rest is cancelled *)
Example C09_composition_example :
  let ins := [ISubmit true; IMatch (Filled 10 300 0 false) 3; IMatch NoMatch 0; IMatch (Filled 10 500 0 true) 5] in
  ins_ok (fresh_order 1000) ins /\
  os_status (fst (orun (fresh_order 1000) ins)) = SCancelled /\
  revs_of 7 1000 10008 (snd (orun (fresh_order 1000) ins)) =
    [RPendingNew {| r_id := 7; r_qty := 1000; r_filled := 0; r_reserve := 10008 |}; RTrade 7 300; RTrade 7 500; RTerminal 7].
Proof. cbv zeta. split; [|split; vm_compute; reflexivity]. vm_compute. repeat split; discriminate. Qed.

Example C09_example :
  let o := {| r_id := 1; r_qty := 1000; r_filled := 0; r_reserve := 10008 |} in
  let s := fold_left rstep [RPendingNew o; RTrade 1 300; RTerminal 1] {| rs_frozen := 0; rs_book := [] |} in
  rs_frozen s == 0 /\ rs_book s = [] /\
  rs_frozen (fold_left rstep [RPendingNew o; RTrade 1 300] {| rs_frozen := 0; rs_book := [] |}) == (700 # 1000) * 10008.
Proof. repeat split; vm_compute; reflexivity. Qed.

(* Tie A: SimulationBroker's methods, regenerated from the source on every run as programs over the primitives of Model/Broker.v
   (Gen/BrokerProg.v): the program of `_match` interprets to the model's matching round, and on_bar / before_trading / after_trading /
   cancel_order / submit_order are the programs the model was written for (an order leaves BOTH books on cancel, final orders are collected
   from BOTH books, the matchers are updated BEFORE the bar's orders are matched, everything still open is rejected at the close ...) *)
Theorem C09_code_broker_is_model :
  (forall fin ph s, interp fin ph gen_match s = bmatch fin s ph) /\
  prog_eqb gen_on_bar expected_on_bar && prog_eqb gen_before_trading expected_before_trading && prog_eqb gen_after_trading expected_after_trading &&
  prog_eqb gen_cancel expected_cancel && prog_eqb gen_submit expected_submit && listeners_as_expected = true.
Proof. split; [exact gen_match_is_model|exact gen_programs_as_modelled]. Qed.

Print Assumptions C09_frozen_invariant.
Print Assumptions C09_frozen_nonneg.
Print Assumptions C09_frozen_zero_when_no_open.
Print Assumptions C09_release_trade.
Print Assumptions C09_release_terminal.
Print Assumptions C09_no_overdraft_step.
Print Assumptions C09_code_broker_is_model.
Print Assumptions C09_protocol_discharged_by_lifecycle.
Print Assumptions C09_every_interleaving.
