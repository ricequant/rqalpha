(* C02  Futures account: margin and daily mark-to-market conserve value. *)
From RQ Require Import Model.Num Model.Position Model.Account Model.AccountRun Proofs.NumFacts Proofs.PositionFacts Proofs.AccountFacts.
From Coq Require Import Lqa.
Open Scope Q_scope.

(* cash ledger of the futures account: realised profit of closes against the carrying price, daily marks, fees, flows *)
Theorem C02_cash_ledger : forall g evs a, a_total_cash (arun g a evs) == a_total_cash a + audit_cash g a evs.
Proof. exact cash_ledger. Qed.
(* a closing fill realises (fill price - carrying price) * quantity * multiplier, signed by direction, minus fees; an open costs its fees *)
Theorem C02_close_realises : forall c p t, is_future c -> t_effect t <> Open ->
  snd (pos_apply_trade c p t) == (t_price t - p_avg p) * t_qty t * pc_mult c * dirf c - t_fee t.
Proof. intros c p t H Hn. rewrite (future_trade_cash c p t H). destruct (t_effect t); [congruence|reflexivity..]. Qed.
Theorem C02_open_costs_fees : forall c p t, is_future c -> t_effect t = Open -> snd (pos_apply_trade c p t) == - t_fee t.
Proof. intros c p t H E. rewrite (future_trade_cash c p t H), E. ring. Qed.
(* total value moves by the distance between fill and mark only *)
Theorem C02_value_trade : forall c p t, is_future c -> 0 <= p_qty p -> 0 < t_qty t ->
  equity c (fst (pos_apply_trade c p t)) + snd (pos_apply_trade c p t) ==
  equity c p + sgn t * (p_last p - t_price t) * t_qty t * pc_mult c * dirf c - t_fee t.
Proof. intros c p t K Hq Ht. rewrite (trade_value c p t (fun _ => conj Hq Ht)). unfold vmult. rewrite K. ring. Qed.
(* margin per direction = quantity * latest price * multiplier * (margin rate * margin multiplier) *)
Theorem C02_margin : forall c rate p, is_future c -> margin c rate p == rate * (pc_mult c * (p_last p * p_qty p)).
Proof. intros c rate p H. unfold margin, market_value. rewrite H. qnorm. rewrite if_zero_mul. reflexivity. Qed.
(* available cash = total value - unrealised profit - margin - reserved cash (liabilities / pending are 0 in a futures account) *)
Theorem C02_available : forall g a,
  cash g a == total_value g a - position_equity a - acc_margin g a - a_frozen a + a_liab a + interest g a - sum_pending (a_pending a).
Proof. intros. unfold cash, total_value. ring. Qed.
(* daily settlement: unrealised profit goes to cash, the carrying price is rebased, total value moves only by settle - last *)
Theorem C02_settlement_value : forall g a i s c p, nth_error (a_pos a) i = Some (c, p) -> pc_kind c = FuturePos ->
  total_value g (astep g a (ESettleFut i s)) ==
  total_value g a + p_qty p * ((match s with Some x => x | None => p_last p end) - p_last p) * pc_mult c * dirf c.
Proof. intros g a i s c p H K. cbn [astep]. rewrite (value_on_entry g a i _ c p H), K.
  pose proof (fut_settle_value c p s K). lra. Qed.
Theorem C02_settlement_rebases : forall c p s, qeq_b (p_qty p) 0 = false ->
  p_avg (fst (fut_settle c p s)) = p_last (fst (fut_settle c p s)) /\
  p_last (fst (fut_settle c p s)) = match s with Some x => x | None => p_last p end.
Proof. intros c p s E. unfold fut_settle. rewrite E. cbn. split; reflexivity. Qed.
(* expiry after marking: closed at the final settlement price, nothing realised, neither position nor margin left *)
Theorem C02_expiry : forall c p, is_future c -> p_avg p == p_last p ->
  snd (fut_expire c p) == 0 /\ p_qty (fst (fut_expire c p)) = 0 /\ p_old (fst (fut_expire c p)) = 0.
Proof. intros c p H E. split; [rewrite fut_expire_cash, E by exact H; ring|split; reflexivity]. Qed.
Theorem C02_expiry_value : forall g a i c p, nth_error (a_pos a) i = Some (c, p) -> pc_kind c = FuturePos -> p_avg p == p_last p ->
  total_value g (astep g a (EExpire i)) == total_value g a.
Proof. intros g a i c p H K _. exact (value_expire g a i c p H K). Qed.
(* forced liquidation flattens the account to exactly zero *)
Theorem C02_forced_liquidation : forall g a, qle_b (total_value g a) 0 = true ->
  a_pos (astep g a (ELiquidate true)) = [] /\ a_total_cash (astep g a (ELiquidate true)) = 0.
Proof. intros g a H. cbn [astep]. unfold forced_liquidation. rewrite H. cbn. split; reflexivity. Qed.
Theorem C02_forced_liquidation_value : forall g a, qle_b (total_value g a) 0 = true -> a_liab a == 0 -> a_pending a = [] ->
  total_value g (astep g a (ELiquidate true)) == 0.
Proof. intros g a H Hl Hp. cbn [astep]. unfold forced_liquidation. rewrite H, total_value_eq. cbn. rewrite Hp, Hl. cbn. field. Qed.

Example C02_example :
  let c := {| pc_kind := FuturePos; pc_long := true; pc_mult := 10; pc_tplus := false |} in
  let p0 := {| p_qty := 0; p_old := 0; p_lold := 0; p_avg := 0; p_trade_cost := 0; p_tcost := 0; p_non_closable := 0; p_last := 3000; p_recv := None |} in
  let a := {| a_total_cash := 100000; a_frozen := 0; a_liab := 0; a_pending := []; a_mgmt_fees := 0; a_pos := [(c, p0)] |} in
  let g := {| ac_future := true; ac_fin_rate := 0; ac_margin_rate := fun _ => 1 # 10 |} in
  let evs := [ETrade 0 {| t_effect := Open; t_price := 3000; t_qty := 2; t_fee := 6 |} None; EMark 0 3010;
              ESettleFut 0 (Some 3012); ETrade 0 {| t_effect := Close; t_price := 3020; t_qty := 1; t_fee := 3 |} None] in
  total_value g (arun g a evs) == 100000 - 6 + 2 * 12 * 10 + 1 * 8 * 10 - 3 /\ acc_margin g (arun g a evs) == (1 # 10) * (10 * (3012 * 1)).
Proof. split; vm_compute; reflexivity. Qed.

Print Assumptions C02_cash_ledger.
Print Assumptions C02_close_realises.
Print Assumptions C02_open_costs_fees.
Print Assumptions C02_value_trade.
Print Assumptions C02_margin.
Print Assumptions C02_available.
Print Assumptions C02_settlement_value.
Print Assumptions C02_settlement_rebases.
Print Assumptions C02_expiry.
Print Assumptions C02_expiry_value.
Print Assumptions C02_forced_liquidation.
Print Assumptions C02_forced_liquidation_value.
