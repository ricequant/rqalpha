(* C19  Failure containment: mods start / tear down once; errors never look like success. *)
From RQ Require Import Model.Num Model.ModLife Proofs.ModLifeFacts.
From Coq Require Import Lia Sorted Permutation.

(* every enabled mod is started exactly once, in priority order *)
Theorem C19_start_order : forall l, Sorted prio_le (sort_mods l).
Proof. intros l. apply (sort_spec l []). constructor. Qed.
Theorem C19_each_mod_once : forall l, Permutation l (sort_mods l).
Proof. intros l. destruct (sort_spec l [] ltac:(constructor)) as [_ P]. rewrite app_nil_r in P. rewrite <- P. apply Permutation_rev. Qed.
(* every run - whatever the fault point, whichever teardown raises - is: all starts, the callbacks up to the fault, all
   teardowns in reverse start order with the exit code of the fault's origin, then the result *)
Theorem C19_run_shape : forall mods n f,
  run_mods mods n f = map (fun m => LStart (md_id m)) (sort_mods mods) ++ callbacks 0 n (fault_at f) ++
                      map (fun m => LTearDown (md_id m) (code_of f) (md_teardown_raises m)) (rev (sort_mods mods)) ++
                      [LResult (match f with NoFault => true | _ => false end)].
Proof. reflexivity. Qed.
Theorem C19_teardown_once_reverse : forall mods n f,
  exists pre, run_mods mods n f = pre ++ map (fun m => LTearDown (md_id m) (code_of f) (md_teardown_raises m)) (rev (sort_mods mods)) ++
                                   [LResult (match f with NoFault => true | _ => false end)] /\
              forall e, In e pre -> forall m c r, e <> LTearDown m c r.
Proof. intros mods n f. eexists. split; [unfold run_mods; rewrite app_assoc; reflexivity|]. intros e H m c r ->. apply in_app_or in H.
  destruct H as [H|H]; [apply in_map_iff in H; destruct H as (x & H & _)|apply callbacks_only in H; destruct H as [j H]]; discriminate. Qed.
Theorem C19_exit_code : forall mods n f e, In e (run_mods mods n f) -> forall m c r, e = LTearDown m c r -> c = code_of f.
Proof. intros mods n f e H m c r ->. apply run_mods_events in H. destruct H as [[? H]|[[? H]|[(? & ? & H)|H]]]; try discriminate.
  injection H as _ <- _. reflexivity. Qed.
Theorem C19_failed_run_returns_nothing : forall mods n f, f <> NoFault -> In (LResult true) (run_mods mods n f) -> False.
Proof. exact failed_run_has_no_report. Qed.
(* after an exception in callback s no later callback runs *)
Theorem C19_no_callback_after_fault : forall k n s, (k <= s < k + n)%nat -> callbacks k n (Some s) = map LCallback (seq k (S s - k)).
Proof. intros k n. revert k. induction n as [|n IH]; intros k s H; [lia|]. cbn [callbacks]. destruct (Nat.eqb_spec s k) as [->|E].
  - replace (S k - k)%nat with 1%nat by lia. reflexivity.
  - rewrite IH by lia. replace (S s - k)%nat with (S (S s - S k)) by lia. reflexivity. Qed.
Theorem C19_all_callbacks_without_fault : forall k n, callbacks k n None = map LCallback (seq k n).
Proof. intros k n. revert k. induction n as [|n IH]; intros k; cbn; [reflexivity|]. rewrite IH. reflexivity. Qed.

Example C19_example :
  run_mods [{| md_id := 1; md_priority := 200; md_teardown_raises := true |}; {| md_id := 2; md_priority := 50; md_teardown_raises := false |};
            {| md_id := 3; md_priority := 200; md_teardown_raises := false |}] 5 (UserFault 2) =
  [LStart 2; LStart 1; LStart 3; LCallback 0; LCallback 1; LCallback 2;
   LTearDown 3 ExitUserError false; LTearDown 1 ExitUserError true; LTearDown 2 ExitUserError false; LResult false].
Proof. vm_compute. reflexivity. Qed.

Print Assumptions C19_start_order.
Print Assumptions C19_each_mod_once.
Print Assumptions C19_run_shape.
Print Assumptions C19_teardown_once_reverse.
Print Assumptions C19_exit_code.
Print Assumptions C19_failed_run_returns_nothing.
Print Assumptions C19_no_callback_after_fault.
Print Assumptions C19_all_callbacks_without_fault.
