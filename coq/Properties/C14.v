(* C14  A run resumed from persisted state continues exactly like the uninterrupted run (partial: serialisation - jsonpickle, pickle -
   and the strategy context / universe / broker order book are runtime and compared by the split runs only). *)
From RQ Require Import Model.Num Model.Position Model.Account Model.AccountRun Model.EventLoop Model.Persist Proofs.CalendarFacts Proofs.PersistFacts.
From RQ Require Import Model.Globals Model.PersistKeys Gen.PersistKeys.
Open Scope Z_scope.

(* what is written and read back loses nothing of a position or an account ... *)
Theorem C14_position_roundtrip : forall p, restore_pos (persist_pos p) = p.
Proof. intros p. destruct p; reflexivity. Qed.
Lemma combine_map_roundtrip (l : list (pcfg * pos)) : combine (map fst l) (map restore_pos (map (fun cp => persist_pos (snd cp)) l)) = l.
Proof. induction l as [|[c p] l IH]; cbn; [reflexivity|]. rewrite IH, C14_position_roundtrip. reflexivity. Qed.
Theorem C14_account_roundtrip : forall a, restore_acc (map fst (a_pos a)) (persist_acc a) = a.
Proof. intros a. destruct a. unfold restore_acc, persist_acc; cbn. rewrite combine_map_roundtrip. reflexivity. Qed.
(* ... so the restored account continues exactly like the original one, whatever happens next *)
Theorem C14_account_continuation : forall g a evs, arun g (restore_acc (map fst (a_pos a)) (persist_acc a)) evs = arun g a evs.
Proof. intros g a evs. rewrite C14_account_roundtrip. reflexivity. Qed.
(* a persisted state without the last price would not do *)
Theorem C14_last_price_is_needed : exists p x, x <> p_last p /\
  {| p_qty := p_qty p; p_old := p_old p; p_lold := p_lold p; p_avg := p_avg p; p_trade_cost := p_trade_cost p; p_tcost := p_tcost p;
     p_non_closable := p_non_closable p; p_last := x; p_recv := p_recv p |} <> p.
Proof.
  exists {| p_qty := 100; p_old := 100; p_lold := 100; p_avg := 10; p_trade_cost := 0; p_tcost := 0; p_non_closable := 0; p_last := 11; p_recv := None |}, 12%Q.
  split; discriminate.
Qed.
(* stop after any day's after-trading, resume on the next event: together exactly the events of the uninterrupted run
   (the pending settlement is published once, by the resumed run) *)
Theorem C14_split_at_end_of_day : forall evs1 evs2 end_date,
  let first := xfold fresh evs1 in
  let resumed := xrun (fst first) evs2 end_date in
  snd first ++ snd resumed = snd (xrun fresh (evs1 ++ evs2) end_date) /\ fst resumed = fst (xrun fresh (evs1 ++ evs2) end_date).
Proof.
  intros evs1 evs2 end_date. cbn zeta. unfold xrun. rewrite xfold_app.
  destruct (xfold fresh evs1) as [s1 o1]. cbn [fst snd]. destruct (xfold s1 evs2) as [s2 o2]. unfold xfinish; cbn [fst snd].
  destruct (x_last_bt s2) as [l|]; [destruct (l =? end_date)|]; cbn [fst snd]; rewrite ?app_assoc; auto.
Qed.
(* stop at a normal exit (the last day is settled): the resumed run does not settle that day again *)
Theorem C14_split_at_normal_exit : forall d ls d' t rest end_date, d' <> d -> ls <> Some d ->
  snd (xrun (unsettled d ls) (SBeforeTrading d' t :: rest) end_date) = PSettlement d :: snd (xrun (settled d) (SBeforeTrading d' t :: rest) end_date) /\
  fst (xrun (unsettled d ls) (SBeforeTrading d' t :: rest) end_date) = fst (xrun (settled d) (SBeforeTrading d' t :: rest) end_date).
Proof.
  intros d ls d' t rest end_date Hd Hls. unfold xrun. rewrite (first_event_after_exit d ls d' t rest Hd Hls).
  destruct (xfold (settled d) (SBeforeTrading d' t :: rest)) as [s o]. unfold xfinish; cbn [fst snd].
  destruct (x_last_bt s) as [l|]; [destruct (l =? end_date)|]; cbn [fst snd]; auto.
Qed.
(* the resumable executor is the executor of the lifecycle model (C08) when nothing was persisted *)
Theorem C14_fresh_run_is_lifecycle_run : forall evs end_date, snd (xrun fresh evs end_date) = exec_run evs end_date.
Proof.
  intros evs end_date. unfold xrun, exec_run, xfold, xfinish.
  destruct (xfold_is_exec evs fresh []) as [A B]; [split; [cbn; discriminate | reflexivity]|]. cbn [x_last_bt fresh] in *.
  rewrite <- A, <- B. destruct (x_last_bt (fst (fold_left xstep evs (fresh, [])))) as [l|]; [destruct (l =? end_date)|]; cbn [fst snd]; rewrite ?app_nil_r; reflexivity.
Qed.
(* the series of the resumed run's report: the days before the resume, then the resumed days, nothing twice *)
Theorem C14_report_series : forall before overlap current d0 x rest, current = (d0, x) :: rest ->
  Forall (fun r => fst r < d0) before -> Forall (fun r => d0 <= fst r) overlap ->
  merge_series (before ++ overlap) current = before ++ current.
Proof.
  intros before overlap current d0 x rest -> Hb Ho. unfold merge_series.
  rewrite filter_app, (filter_all _ before), (filter_none _ overlap), app_nil_r; [reflexivity|..]; (eapply Forall_impl; [|eassumption]); intros r;
    [apply Z.ltb_ge|apply Z.ltb_lt].
Qed.

Example C14_example :
  snd (xrun fresh (daily_events [20200102; 20200103]) 20200103) =
  snd (xfold fresh (daily_events [20200102])) ++ snd (xrun (fst (xfold fresh (daily_events [20200102]))) (daily_events [20200103]) 20200103) /\
  In (PSettlement 20200102) (snd (xrun (fst (xfold fresh (daily_events [20200102]))) (daily_events [20200103]) 20200103)).
Proof. split; vm_compute; [reflexivity | auto]. Qed.

(* Tie A: what get_state writes and set_state reads back, regenerated from the source on every run (Gen/PersistKeys.v): every key the
   persist model relies on is written and read back, nothing is filtered out, and every scalar field goes back into the very attribute
   it was read from (a key written from a derived view - the public start_date is the CURRENT run's - would restore something else) *)
Theorem C14_code_state_records :
  forallb (fun ck => forallb (fun k => mem_str k (keys_of (fst ck) written)) (snd ck)) required_keys = true /\
  forallb (fun ck => forallb (fun k => mem_str k (keys_of (fst ck) read_back)) (snd ck)) required_keys = true /\
  forallb (fun c => negb (flag_of c filtered)) unfiltered_classes = true /\
  forallb (fun ck => forallb (fun k => same_field (fst ck) k written_from restored_to) (snd ck)) round_trip_fields = true.
Proof. split; [exact required_keys_written|]. split; [exact required_keys_read_back|]. split; [exact nothing_filtered_out|exact fields_round_trip]. Qed.

Print Assumptions C14_position_roundtrip.
Print Assumptions C14_account_roundtrip.
Print Assumptions C14_account_continuation.
Print Assumptions C14_last_price_is_needed.
Print Assumptions C14_split_at_end_of_day.
Print Assumptions C14_split_at_normal_exit.
Print Assumptions C14_fresh_run_is_lifecycle_run.
Print Assumptions C14_report_series.
Print Assumptions C14_code_state_records.
