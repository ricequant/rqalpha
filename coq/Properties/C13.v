(* C13  Backtests are deterministic and isolated from other runs and unrelated data (partial: the inventory of process-wide state is
   modelled by hand and compared with the code by the regenerated Gen/Globals.v and by the in-process run sequences). *)
From RQ Require Import Model.Num Model.Account Model.AccountRun Model.Isolation Proofs.CalendarFacts Proofs.IsolationFacts.
From Coq Require Import Lia ZifyBool.
Open Scope Z_scope.

(* a new run erases the switches, the environment and the memoised results earlier runs left behind *)
Theorem C13_boot_forgets : forall cfg hf rid p p',
  pr_switches (boot cfg hf rid p) = pr_switches (boot cfg hf rid p') /\ pr_env (boot cfg hf rid p) = pr_env (boot cfg hf rid p') /\
  pr_cache (boot cfg hf rid p) = pr_cache (boot cfg hf rid p').
Proof. repeat split. Qed.
(* whatever ran before in the process, the run's outcome is the same (order / trade ids renamed) *)
Theorem C13_independent_of_earlier_runs_partial : forall data cfg hf rid ops p p', wf_ops false ops -> api_safe hf ops ->
  norm (pr_next_id p) (prun data (boot cfg hf rid p) ops) = norm (pr_next_id p') (prun data (boot cfg hf rid p') ops).
Proof. intros data cfg hf rid ops p p' Hwf Hsafe. apply (prun_sim data hf ops false); [|exact Hwf|exact Hsafe].
  unfold sim; cbn. repeat apply conj; try reflexivity; [rewrite !Z.sub_diag; reflexivity|discriminate|intros ->; rewrite !Bool.orb_true_r; split; reflexivity]. Qed.
(* the full statement (without api_safe) is false of the faithful model, as it is of the code: known finding D21 *)
Theorem C13_independent_of_earlier_runs_refuted : exists data cfg rid p p',
  norm (pr_next_id p) (prun data (boot cfg false rid p) [PFutureApi]) <> norm (pr_next_id p') (prun data (boot cfg false rid p') [PFutureApi]).
Proof.
  pose (sw := {| sw_reinvest := false; sw_cash_return := false; sw_t1 := false |}).
  pose (p fa := {| pr_switches := sw; pr_env := 0; pr_cache := []; pr_margin_on := false; pr_next_id := 0; pr_future_apis := fa |}).
  exists (fun _ => 0), sw, 1, (p false), (p true). vm_compute. discriminate.
Qed.
(* without the cache reset an earlier run's data would be visible *)
Theorem C13_stale_cache_would_leak : exists data data' key p, data key <> data' key /\
  prun data' (pfinal data p [PCached key]) [PCached key] <> prun data' {| pr_switches := pr_switches p; pr_env := 0; pr_cache := []; pr_margin_on := false; pr_next_id := 0; pr_future_apis := false |} [PCached key].
Proof.
  exists (fun _ => 1), (fun _ => 2), 7, {| pr_switches := {| sw_reinvest := false; sw_cash_return := false; sw_t1 := false |}; pr_env := 0; pr_cache := [];
                                           pr_margin_on := false; pr_next_id := 0; pr_future_apis := false |}.
  split; [discriminate|]. vm_compute. discriminate.
Qed.
(* instruments the strategy never references do not change what it is served *)
Theorem C13_lookup_in_superset : forall keep data id, keep id = true -> find_instr (restrict keep data) id = find_instr data id.
Proof.
  intros keep data id Hk. unfold find_instr, restrict. induction data as [|i data IH]; cbn [filter find]; [reflexivity|].
  destruct (keep (i_id i)) eqn:K; cbn [find].
  - destruct (i_id i =? id); [reflexivity | exact IH].
  - destruct (Z.eqb_spec (i_id i) id); [congruence|exact IH].
Qed.
Theorem C13_contracts_in_superset : forall keep data und d,
  (forall i, In i data -> i_future i = true -> i_und i = und -> keep (i_id i) = true) ->
  contracts (restrict keep data) und d = contracts data und d.
Proof.
  intros keep data und d H. unfold contracts, restrict. rewrite filter_filter. f_equal. apply filter_ext_in. intros i Hi.
  destruct (is_contract und d i) eqn:E; [|apply andb_false_r]. unfold is_contract in E. rewrite H; [reflexivity|assumption|lia..].
Qed.
Theorem C13_contracts_only_of_product : forall data und d id, In id (contracts data und d) ->
  exists i, In i data /\ i_id i = id /\ i_und i = und /\ i_future i = true /\ i_listed i <= d <= i_delisted i.
Proof.
  unfold contracts. intros data und d id H. apply in_map_iff in H. destruct H as (i & Hi & Hin). apply filter_In in Hin. destruct Hin as [Hin E].
  unfold is_contract in E. exists i. split; [exact Hin|]. split; [exact Hi|]. lia.
Qed.

(* the account kernel: extra positions (instruments in the data set the strategy never trades or marks) are carried along unchanged and do not
   change the cash or any other position, for every event list that only names the strategy's own entries (forced liquidation, which sums over
   all positions, excluded) *)
Theorem C13_account_frame : forall g evs a extra, Forall (local_to (length (a_pos a))) evs ->
  arun g (extend a extra) evs = extend (arun g a evs) extra.
Proof.
  unfold arun. intros g evs. induction evs as [|e evs IH]; intros a extra H; cbn [fold_left]; [reflexivity|].
  inversion H as [|? ? He Hr]; subst. destruct (astep_local g a extra e He) as [-> L]. apply IH. rewrite L. exact Hr.
Qed.

Example C13_example :
  wf_ops false [PSwitch 0; PCached 3; PMargin [0%Q]; POpenFuture; PMargin [5%Q]; PNewId] /\
  api_safe true [PSwitch 0; PFutureApi] /\
  prun (fun k => k * 2) (boot {| sw_reinvest := true; sw_cash_return := false; sw_t1 := true |} false 2
                              {| pr_switches := {| sw_reinvest := false; sw_cash_return := true; sw_t1 := false |}; pr_env := 1; pr_cache := [(3, 99)];
                                 pr_margin_on := true; pr_next_id := 50; pr_future_apis := false |})
       [PSwitch 0; PCached 3; PEnv; PMargin [0%Q]] = [OB true; OZ 6; OZ 2; OQ 0%Q].
Proof. split; [cbn; repeat split; intros; try discriminate; repeat constructor | split; [intros H; discriminate H | vm_compute; reflexivity]]. Qed.

Print Assumptions C13_boot_forgets.
Print Assumptions C13_independent_of_earlier_runs_partial.
Print Assumptions C13_independent_of_earlier_runs_refuted.
Print Assumptions C13_stale_cache_would_leak.
Print Assumptions C13_lookup_in_superset.
Print Assumptions C13_contracts_in_superset.
Print Assumptions C13_contracts_only_of_product.
Print Assumptions C13_account_frame.
