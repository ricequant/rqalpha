(* C15  Order-sizing APIs: whole lots, never over the requested value, cash or holdings. *)
From RQ Require Import Model.Num Model.Position Model.Sizing Proofs.NumFacts Proofs.SizingFacts.
From Coq Require Import Lia Lqa.
Open Scope Q_scope.

(* lot rounding: a whole number of lots, not more than requested (in absolute value), less than one lot short *)
Theorem C15_round : forall i q, s_ksh i = false -> (0 < s_lot i)%Z ->
  dec_div q (zq (s_lot i)) == q / zq (s_lot i) ->
  let r := round_order_quantity i q in
  (s_lot i | r)%Z /\ (0 <= q -> 0 <= zq r /\ zq r <= q /\ q - zq r < zq (s_lot i)) /\ (q <= 0 -> zq r <= 0 /\ q <= zq r /\ zq r - q < zq (s_lot i)).
Proof.
  intros i q K Hl Hd r. unfold r, round_order_quantity. rewrite K. split; [apply Z.divide_factor_r|].
  apply trunc_lots; [exact Hl|]. rewrite Hd. field. apply zq_neq0. lia.
Qed.
Theorem C15_round_star_market : forall i q, s_ksh i = true ->
  (qabs q < 200 -> round_order_quantity i q = 0%Z) /\ (200 <= qabs q -> round_order_quantity i q = qtrunc q).
Proof. intros i q K. unfold round_order_quantity, KSH_MIN. rewrite K. split; intros H.
  - apply qlt_b_true in H. rewrite H. reflexivity.
  - apply qlt_b_false in H. rewrite H. reflexivity. Qed.
(* the value-sized buy: the largest whole-lot amount (not above the lot-rounded floor(budget/price)) whose price x amount + estimated fee
   fits the budget = min(request, available cash) *)
Theorem C15_value_buy : forall lot price budget fee, (0 < lot)%Z -> forall k, (0 <= k)%Z ->
  let r := budget_loop (S (Z.to_nat ((k * lot) / lot))) lot price budget fee (k * lot)%Z in
  (lot | r)%Z /\ (0 <= r <= k * lot)%Z /\ (r <> 0%Z -> zq r * price + fee r <= budget) /\
  (forall j, (0 <= j <= k)%Z -> (r < j * lot)%Z -> ~ (zq (j * lot) * price + fee (j * lot)%Z <= budget)).
Proof. intros lot price budget fee Hl k Hk. rewrite Z.div_mul by lia. apply loop_spec; [assumption..|apply Nat.lt_succ_diag_r]. Qed.
(* a value-sized sell never exceeds the closable holding *)
Theorem C15_sell_bound : forall i cash_amount cash price fee closable a, 0 <= closable -> 0 < price -> cash_amount <= 0 ->
  dec_div cash_amount price <= 0 ->
  order_value_amount i cash_amount cash price fee closable = Some a -> - closable <= a /\ a <= 0.
Proof. intros i cash_amount cash price fee closable a Hc _ Hn Hx. unfold order_value_amount.
  assert (E : qlt_b 0 cash_amount = false) by (apply qlt_b_false; assumption). rewrite E, E.
  destruct (qtrunc_nonpos _ Hx) as (A & _ & _).
  destruct (qtrunc (dec_div cash_amount price) <? 0)%Z eqn:S; intros [= <-].
  - split; [rewrite <- (qneg_ok closable); apply qmax_le_r|apply qmax_lub; [exact A|rewrite qneg_ok; lra]].
  - assert (0 <= zq (qtrunc (dec_div cash_amount price))) by (apply zq_nonneg; lia). split; lra. Qed.
(* a request that rounds to zero creates no order *)
Theorem C15_zero_noop : forall i amount cq, qeq_b (stock_submit_amount i amount (qlt_b 0 amount) cq) 0 = true -> order_shares_intent i amount cq = None.
Proof. intros i amount cq H. unfold order_shares_intent. rewrite H. reflexivity. Qed.
(* futures order / order_to: close-yesterday, close-today, open - in that order; the quantities add up to the request *)
Theorem C15_future_legs : forall (quantity : Q) (target : bool) (lq sq lold ltod sold stod : Q),
  0 <= lold -> 0 <= ltod -> 0 <= sold -> 0 <= stod ->
  let q0 := if target then qsub quantity (qsub lq sq) else quantity in
  let l := future_order_requests quantity target lq sq lold ltod sold stod in
  ~ q0 == 0 ->
  ranks_sorted 0 l /\ req_total l == qabs q0 /\ (forall s e q, In (s, e, q) l -> s = (if qlt_b 0 q0 then Buy else Sell) /\ 0 < q).
Proof. intros quantity target lq sq lold ltod sold stod _ _ _ _ q0 l Hnz. unfold l, future_order_requests. fold q0.
  qcase (qlt_b 0 q0) B.
  - rewrite qabs_nonneg by lra. apply future_legs_spec; assumption.
  - assert (Ab : qabs q0 == qmul q0 (-1)) by (rewrite qabs_nonpos, qmul_ok by assumption; ring).
    rewrite Ab. apply future_legs_spec. rewrite qmul_ok. lra.
Qed.
Theorem C15_future_leg_quantities : forall s e q avail, 0 <= avail -> 0 < q ->
  let r := close_leg s e q avail in
  req_total (fst r) + qmax (snd r) 0 == q /\ snd r <= q /\ (forall s' e' q', In (s', e', q') (fst r) -> s' = s /\ e' = e /\ 0 < q').
Proof. intros s e q avail _. apply close_leg_spec. Qed.

Example C15_example :
  let i := {| s_lot := 100; s_ksh := false |} in
  round_order_quantity i 250 = 200%Z /\ round_order_quantity i (-250) = (-200)%Z /\
  order_value_amount i 10000 100000 (999 # 100) (fun a => qmax 5 (zq a * (999 # 100) * (8 # 10000))) 0 = Some 1000 /\
  order_value_amount i 10000 100000 10 (fun a => qmax 5 (zq a * 10 * (8 # 10000))) 0 = Some 900 /\
  order_shares_intent i (-150) 150 = Some (Intent Sell Close 150) /\ order_shares_intent i (-150) 400 = Some (Intent Sell Close 100) /\
  future_order_requests (-7) false 8 0 5 3 0 0 = [(Sell, Close, 5); (Sell, CloseToday, 2)].
Proof. repeat split; vm_compute; reflexivity. Qed.

(* the hypotheses about the 10-digit decimal context are satisfiable (and it does round: -716 / 3.5800000000000000711 -> -200) *)
Example C15_decimal_context : dec_div 250 100 == 250 / 100 /\ dec_div (-3000) 10 <= 0 /\
  qtrunc (dec_div (-716) (2015360833248297 # 562949953421312)) = (-200)%Z /\ qtrunc (qdiv (-716) (2015360833248297 # 562949953421312)) = (-199)%Z.
Proof. repeat split; vm_compute; try reflexivity; discriminate. Qed.

Print Assumptions C15_round.
Print Assumptions C15_round_star_market.
Print Assumptions C15_value_buy.
Print Assumptions C15_sell_bound.
Print Assumptions C15_zero_noop.
Print Assumptions C15_future_legs.
Print Assumptions C15_future_leg_quantities.
