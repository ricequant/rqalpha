From RQ Require Import Model.Num Model.Position Proofs.NumFacts.
From Coq Require Import Lqa.
Open Scope Q_scope.

Definition is_stock (c : pcfg) := pc_kind c = StockPos.
Definition is_future (c : pcfg) := pc_kind c = FuturePos.

Lemma if_zero_mul (q x : Q) : (if qeq_b q 0 then 0 else qmul x q) == x * q.
Proof. destruct (qeq_b q 0) eqn:E; [apply qeq_b_true in E; rewrite E; ring | qnorm; reflexivity]. Qed.

Lemma stock_equity c p : is_stock c -> equity c p == p_last p * p_qty p + receivable p.
Proof. intros H. unfold equity. rewrite H. qnorm. rewrite if_zero_mul. reflexivity. Qed.
Lemma future_equity c p : is_future c -> equity c p == p_qty p * (p_last p - p_avg p) * pc_mult c * dirf c.
Proof. intros H. unfold equity. rewrite H. qnorm. reflexivity. Qed.
Lemma stock_margin c rate p : is_stock c -> margin c rate p = 0.
Proof. intros H. unfold margin. rewrite H. reflexivity. Qed.
Lemma trading_pnl_eq c p : trading_pnl c p == pc_mult c * (((p_qty p - p_lold p) * p_last p - p_trade_cost p) * dirf c).
Proof. unfold trading_pnl. qnorm. reflexivity. Qed.
Lemma position_pnl_eq c prev p : position_pnl c prev p == pc_mult c * (p_lold p * (p_last p - prev) * dirf c).
Proof. unfold position_pnl. destruct (qeq_b (p_lold p) 0) eqn:E; [apply qeq_b_true in E; rewrite E; qnorm; ring|qnorm; reflexivity]. Qed.
Lemma dirf_sq c : dirf c * dirf c == 1. Proof. unfold dirf. destruct (pc_long c); ring. Qed.

Definition sgn (t : trade) : Q := match t_effect t with Open => 1 | _ => -1 end.

(* what a fill does to the fields of an entry that every kind and effect treats alike *)
Definition booked (p : pos) (t : trade) (p' : pos) : Prop :=
  p_qty p' == p_qty p + sgn t * t_qty t /\ p_trade_cost p' == p_trade_cost p + sgn t * (t_price t * t_qty t) /\
  p_tcost p' == p_tcost p + t_fee t /\ p_last p' = p_last p /\ p_recv p' = p_recv p /\ p_lold p' = p_lold p.
(* Position.apply_trade.  The cases are split before `booked` is unfolded, while the goal holds one copy of the unfolded entry and not six. *)
Lemma base_fields p t : booked p t (fst (base_apply_trade p t)).
Proof. unfold base_apply_trade. destruct (t_effect t) eqn:T; unfold booked, sgn; rewrite T; cbn [fst p_qty p_trade_cost p_tcost p_last p_recv p_lold];
    repeat split; try reflexivity; rewrite ?qadd_ok, ?qsub_ok, ?qmul_ok; ring. Qed.
Lemma base_trade_cash p t : snd (base_apply_trade p t) == - sgn t * (t_price t * t_qty t) - t_fee t.
Proof. unfold base_apply_trade, sgn. destruct (t_effect t); cbn [snd]; rewrite qsub_ok, ?qmul_ok; ring. Qed.

(* ... and so a fill, whatever its kind and effect: StockPosition.apply_trade adds to _non_closable only, FuturePosition.apply_trade books a
   CLOSE_TODAY like a CLOSE except for _old_quantity, so in every case the fields are, up to computation, those of base_fields.
   On a stock CLOSE_TODAY, which Position.apply_trade refuses (NotImplementedError), the model books a CLOSE: the property theorems about
   the cash and the value of a stock fill carry a hypothesis that excludes that effect. *)
Lemma trade_fields c p t : booked p t (fst (pos_apply_trade c p t)).
Proof. destruct t as [e pr q f]. unfold pos_apply_trade, stock_apply_trade, future_apply_trade. cbn [t_effect].
  destruct (pc_kind c), e; [destruct (pc_tplus c)|..]; exact (base_fields p _). Qed.
Lemma trade_qty c p t : p_qty (fst (pos_apply_trade c p t)) == p_qty p + sgn t * t_qty t.
Proof. apply trade_fields. Qed.
Lemma trade_trade_cost c p t : p_trade_cost (fst (pos_apply_trade c p t)) == p_trade_cost p + sgn t * (t_price t * t_qty t).
Proof. apply trade_fields. Qed.
Lemma trade_tcost c p t : p_tcost (fst (pos_apply_trade c p t)) == p_tcost p + t_fee t.
Proof. apply trade_fields. Qed.
Lemma trade_last c p t : p_last (fst (pos_apply_trade c p t)) = p_last p.
Proof. apply trade_fields. Qed.
Lemma trade_recv c p t : p_recv (fst (pos_apply_trade c p t)) = p_recv p.
Proof. apply trade_fields. Qed.
Lemma trade_lold c p t : p_lold (fst (pos_apply_trade c p t)) = p_lold p.
Proof. apply trade_fields. Qed.

Lemma stock_trade_cash c p t : is_stock c -> snd (pos_apply_trade c p t) == - sgn t * (t_price t * t_qty t) - t_fee t.
Proof. intros H. rewrite <- base_trade_cash. unfold pos_apply_trade, stock_apply_trade. rewrite H.
  destruct (t_effect t); [destruct (pc_tplus c)|..]; reflexivity. Qed.
(* futures: an open costs its fees; a close realises (fill price - carrying price) * quantity * multiplier, signed *)
Lemma future_trade_cash c p t : is_future c ->
  snd (pos_apply_trade c p t) ==
  match t_effect t with Open => 0 | _ => (t_price t - p_avg p) * t_qty t * pc_mult c * dirf c end - t_fee t.
Proof. intros H. unfold pos_apply_trade, future_apply_trade. rewrite H. destruct t as [e pr q f]. cbn [t_effect t_price t_qty t_fee].
  destruct e; cbn [fst snd base_apply_trade t_effect p_avg]; rewrite ?qadd_ok, ?qmul_ok, ?qsub_ok; ring. Qed.
(* ... and the carrying value quantity * average price moves by the fill's value at the fill price (open) or at the carrying price (close) *)
Lemma future_trade_carry c p t p' : is_future c -> 0 <= p_qty p -> 0 < t_qty t -> p' = fst (pos_apply_trade c p t) ->
  p_qty p' * p_avg p' == p_qty p * p_avg p + sgn t * t_qty t * match t_effect t with Open => t_price t | _ => p_avg p end.
Proof. intros H Hq Ht ->. unfold pos_apply_trade, future_apply_trade, sgn. rewrite H. destruct t as [e pr q f]. cbn [t_effect t_price t_qty] in *.
  destruct e; cbn [fst base_apply_trade t_effect t_qty t_price p_qty p_avg]; [|rewrite qsub_ok; ring..].
  (* an open on a non-negative quantity takes the weighted-average branch of _avg_price *)
  rewrite (proj2 (qlt_b_false _ _) Hq), qdiv_ok, !qadd_ok, !qmul_ok. field. lra. Qed.

(* what a unit of quantity gains when the price rises by one: a stock entry is valued at quantity * price whatever its multiplier and
   direction, a futures entry at the signed multiple *)
Definition vmult (c : pcfg) : Q := match pc_kind c with StockPos => 1 | FuturePos => pc_mult c * dirf c end.
(* value of one entry + cash moves by the distance of the fill price to the mark, times the signed quantity, minus fees *)
Lemma trade_value c p t : (is_future c -> 0 <= p_qty p /\ 0 < t_qty t) ->
  equity c (fst (pos_apply_trade c p t)) + snd (pos_apply_trade c p t) ==
  equity c p + sgn t * (p_last p - t_price t) * t_qty t * vmult c - t_fee t.
Proof. intros Hf. unfold vmult. destruct (pc_kind c) eqn:K.
  - rewrite !stock_equity, stock_trade_cash, trade_qty, trade_last by exact K. unfold receivable. rewrite trade_recv. ring.
  - destruct (Hf K) as [Hq Ht]. rewrite !future_equity, future_trade_cash, trade_last by exact K. set (p' := fst (pos_apply_trade c p t)).
    setoid_replace (p_qty p' * (p_last p - p_avg p')) with (p_qty p' * p_last p - p_qty p' * p_avg p') by ring.
    rewrite (future_trade_carry c p t p' K Hq Ht eq_refl). unfold p'. rewrite trade_qty. unfold sgn. destruct (t_effect t); ring. Qed.
(* a mark: only _last_price moves, and the entry's value with it *)
Lemma mark_value c p p' : p_qty p' = p_qty p -> p_avg p' = p_avg p -> p_recv p' = p_recv p ->
  equity c p' == equity c p + p_qty p * (p_last p' - p_last p) * vmult c.
Proof. intros Hq Ha Hr. unfold vmult. destruct (pc_kind c) eqn:K; [rewrite !stock_equity by exact K; unfold receivable|rewrite !future_equity by exact K];
  rewrite Hq, ?Ha, ?Hr; ring. Qed.
Lemma future_trade_qty c p t : is_future c ->
  p_qty (fst (pos_apply_trade c p t)) == p_qty p + sgn t * t_qty t.
Proof. intros _. apply trade_qty. Qed.
Lemma future_trade_last c p t : is_future c -> p_last (fst (pos_apply_trade c p t)) = p_last p.
Proof. intros _. apply trade_last. Qed.

(* calc_close_today_amount = the part of a close that is taken from today's quantity *)
Lemma close_today_amount_close c p q : is_future c -> 0 <= p_old p ->
  calc_close_today_amount c p q Close == q - qmin q (p_old p).
Proof. intros H _. unfold calc_close_today_amount. rewrite H.
  destruct (qmin_spec q (p_old p)) as [[L ->]|[L ->]]; [rewrite qmax_r|rewrite qmax_l]; rewrite ?qsub_ok; lra. Qed.
Lemma close_today_amount_ct c p q : is_future c ->
  calc_close_today_amount c p q CloseToday == qmin q (p_qty p - p_old p).
Proof. intros H. unfold calc_close_today_amount. rewrite H. fold (qmin q (qsub (p_qty p) (p_old p))).
  apply qmin_comp; [reflexivity|apply qsub_ok]. Qed.

Lemma fut_settle_value c p s : is_future c ->
  equity c (fst (fut_settle c p s)) + snd (fut_settle c p s) ==
  equity c p + p_qty p * ((match s with Some x => x | None => p_last p end) - p_last p) * pc_mult c * dirf c.
Proof. intros H. unfold fut_settle. qcase (qeq_b (p_qty p) 0) E; cbn [fst snd]; rewrite ?qadd_ok, !future_equity by assumption;
  cbn [p_qty p_last p_avg]; [rewrite E|]; ring. Qed.
Lemma fut_settle_equity_zero c p s : is_future c -> equity c (fst (fut_settle c p s)) == 0 \/ p_qty p == 0.
Proof. intros H. unfold fut_settle. destruct (qeq_b (p_qty p) 0) eqn:E; [right; apply qeq_b_true; assumption|left].
  cbv zeta. cbn [fst]. rewrite future_equity by assumption. cbn [p_qty p_last p_avg]. ring. Qed.
Lemma fut_expire_cash c p : is_future c -> snd (fut_expire c p) == (p_last p - p_avg p) * p_qty p * pc_mult c * dirf c.
Proof. intros H. unfold fut_expire. replace (future_apply_trade c p) with (pos_apply_trade c p) by (unfold pos_apply_trade; rewrite H; reflexivity).
  cbn [snd]. rewrite (future_trade_cash c p _ H). cbn [t_effect t_price t_qty t_fee]. ring. Qed.

Lemma book_closure_neutral c p dps payable : is_stock c ->
  equity c (bt_book p (Some (dps, payable))) == equity c p - receivable p.
Proof. intros H. rewrite !stock_equity by assumption. unfold bt_book, receivable. cbn [p_last p_qty p_recv]. qnorm. ring. Qed.
Lemma pay_neutral c p today lot : is_stock c ->
  equity c (fst (fst (bt_pay p today false lot))) + snd (fst (bt_pay p today false lot)) == equity c p.
Proof. intros H. rewrite !stock_equity by assumption. unfold bt_pay, receivable.
  destruct (p_recv p) as [[d v]|] eqn:E; cbn [fst snd]; rewrite ?E; [|ring].
  destruct (d =? today)%Z; cbn [negb fst snd p_last p_qty p_recv]; rewrite ?E; ring. Qed.
(* a split whose result is integral leaves the marked value unchanged *)
Lemma split_neutral c p r k : is_stock c -> 0 < r -> qmul (p_qty p) r == zq k ->
  equity c (bt_split p (Some r)) == equity c p.
Proof. intros H Hr Hk. rewrite !stock_equity by assumption. unfold bt_split, receivable. cbn [p_last p_qty p_recv].
  rewrite (qround_even_int _ k Hk), <- Hk. qnorm. field. lra. Qed.
(* delisting: payout at the last price leaves entry value + cash unchanged (an outstanding receivable stays with the entry) *)
Lemma delist_neutral c p : is_stock c ->
  equity c (fst (fst (stock_delist p None true))) + snd (fst (stock_delist p None true)) == equity c p.
Proof. intros H. rewrite !stock_equity by assumption. unfold stock_delist, receivable.
  destruct (qeq_b (p_qty p) 0) eqn:E; cbn [fst snd p_last p_qty p_recv]; [ring|qnorm; ring]. Qed.
Lemma delist_payout_neutral c p : is_stock c -> p_recv p = None ->
  equity c (fst (fst (stock_delist p None true))) + snd (fst (stock_delist p None true)) == equity c p.
Proof. intros H _. exact (delist_neutral c p H). Qed.
