From RQ Require Import Model.Num Model.Position Model.Sizing Proofs.NumFacts.
From Coq Require Import Lia Lqa.
Open Scope Q_scope.

(* whole lots: 0 <= t <= x < t + 1 (or its mirror image below zero) for t = int(x), times the lot *)
Lemma trunc_lots x lot q : (0 < lot)%Z -> q == x * zq lot ->
  let r := zq (qtrunc x * lot) in
  (0 <= q -> 0 <= r /\ r <= q /\ q - r < zq lot) /\ (q <= 0 -> r <= 0 /\ q <= r /\ r - q < zq lot).
Proof. intros Hl Hq r. apply zq_pos in Hl. unfold r. rewrite zq_mul. split; intros H.
  - destruct (qtrunc_nonneg x) as (A & B & C); [nra|]. repeat split; nra.
  - destruct (qtrunc_nonpos x) as (A & B & C); [nra|]. repeat split; nra. Qed.

Section Budget.
  Variables (lot : Z) (price budget : Q) (fee : Z -> Q).
  Hypothesis lot_pos : (0 < lot)%Z.
  Lemma loop_spec fuel : forall k, (0 <= k)%Z -> (Z.to_nat k < fuel)%nat ->
    let r := budget_loop fuel lot price budget fee (k * lot)%Z in
    (lot | r)%Z /\ (0 <= r <= k * lot)%Z /\ (r <> 0%Z -> zq r * price + fee r <= budget) /\
    (forall j, (0 <= j <= k)%Z -> (r < j * lot)%Z -> ~ (zq (j * lot) * price + fee (j * lot)%Z <= budget)).
  Proof.
    induction fuel as [|f IH]; intros k Hk Hf; [lia|]. cbn [budget_loop]. destruct (0 <? k * lot)%Z eqn:E.
    - assert (0 < k)%Z by nia. qcase (qle_b (qadd (qmul (zq (k * lot)) price) (fee (k * lot)%Z)) budget) F; rewrite qadd_ok, qmul_ok in F.
      + split; [apply Z.divide_factor_r|]. split; [lia|]. split; [intros _; exact F|]. intros j Hj Hlt. nia.
      + replace (k * lot - lot)%Z with ((k - 1) * lot)%Z by ring. destruct (IH (k - 1)%Z) as (D & R & Hfit & Hmax); [lia..|].
        split; [exact D|]. split; [nia|]. split; [exact Hfit|].
        intros j Hj Hlt. destruct (Z.eq_dec j k) as [->|Hne]; [lra|apply Hmax; [lia|assumption]].
    - assert (k = 0)%Z by nia. subst. split; [apply Z.divide_0_r|]. split; [lia|]. split; [congruence|]. intros j Hj Hlt. lia.
  Qed.
End Budget.

(* futures order / order_to: close yesterday's quantity, then today's, then open - in that order and with these quantities *)
Fixpoint req_total (l : list (side * effect * Q)) : Q := match l with [] => 0 | (_, _, q) :: t => q + req_total t end.
Definition eff_rank (e : effect) : nat := match e with Close => 0 | CloseToday => 1 | Open => 2 end.
Fixpoint ranks_sorted (lo : nat) (l : list (side * effect * Q)) : Prop :=
  match l with [] => True | (_, e, _) :: t => (lo <= eff_rank e)%nat /\ ranks_sorted (S (eff_rank e)) t end.
Lemma req_total_app a b : req_total (a ++ b) == req_total a + req_total b.
Proof. induction a as [|[[s e] q] t IH]; cbn; [ring|rewrite IH; ring]. Qed.
Lemma ranks_sorted_weaken lo lo' l : (lo <= lo')%nat -> ranks_sorted lo' l -> ranks_sorted lo l.
Proof. destruct l as [|[[s e] q] t]; cbn; [trivial|intros H [A B]; split; [lia|exact B]]. Qed.

(* the closing leg takes min(q, avail) and hands on the rest, which is meaningful only if positive *)
Lemma close_leg_spec s e q avail : 0 < q ->
  let r := close_leg s e q avail in
  req_total (fst r) + qmax (snd r) 0 == q /\ snd r <= q /\
  (forall s' e' q', In (s', e', q') (fst r) -> s' = s /\ e' = e /\ 0 < q').
Proof. intros Hq r. unfold r, close_leg. qcase (qlt_b 0 avail) A; cbn [fst snd req_total]; rewrite ?qsub_ok.
  - split; [rewrite Qplus_0_r; apply qmin_plus_qmax_sub|]. split; [lra|].
    intros s' e' q' [[= <- <- <-]|[]]. repeat split. apply qmin_glb_lt; assumption.
  - split; [rewrite qmax_l by lra; ring|]. split; [lra|intros s' e' q' []].
Qed.
Lemma close_leg_sorted s e q avail lo t : (lo <= eff_rank e)%nat -> ranks_sorted (S (eff_rank e)) t ->
  ranks_sorted lo (fst (close_leg s e q avail) ++ t).
Proof. intros H Ht. unfold close_leg. destruct (qlt_b 0 avail); cbn; [split; assumption|]. apply (ranks_sorted_weaken _ (S (eff_rank e))); [lia|exact Ht]. Qed.

(* legs in rank order from lo on, all on side s with positive quantities that add up to q *)
Definition legs_ok (s : side) (lo : nat) (q : Q) (l : list (side * effect * Q)) : Prop :=
  ranks_sorted lo l /\ req_total l == q /\ (forall s' e' q', In (s', e', q') l -> s' = s /\ 0 < q').
(* a closing leg followed by legs for what it leaves *)
Lemma close_leg_then s e q avail lo t : 0 < q -> (lo <= eff_rank e)%nat ->
  legs_ok s (S (eff_rank e)) (qmax (snd (close_leg s e q avail)) 0) t -> legs_ok s lo q (fst (close_leg s e q avail) ++ t).
Proof. intros Hq Hlo (St & Tt & It). destruct (close_leg_spec s e q avail Hq) as (T & _ & I).
  split; [apply close_leg_sorted; assumption|]. split; [rewrite req_total_app, Tt; exact T|].
  intros s' e' q' Hin. apply in_app_or in Hin. destruct Hin as [Hin|Hin]; [destruct (I _ _ _ Hin) as (A & _ & C); auto|exact (It _ _ _ Hin)]. Qed.
(* ... which are none if it leaves nothing *)
Lemma rest_ok s lo x t : (0 < x -> legs_ok s lo x t) -> legs_ok s lo (qmax x 0) (if qle_b x 0 then [] else t).
Proof. intros H. qcase (qle_b x 0) Hx.
  - split; [exact I|]. split; [rewrite qmax_r by lra; reflexivity|intros s' e' q' []].
  - destruct (H Hx) as (A & B & C). split; [exact A|]. split; [rewrite B, qmax_l by lra; reflexivity|exact C]. Qed.
Lemma future_legs_eq s q1 old today : future_legs s q1 old today =
  let r1 := close_leg s Close q1 old in
  fst r1 ++ if qle_b (snd r1) 0 then [] else
            let r2 := close_leg s CloseToday (snd r1) today in fst r2 ++ if qle_b (snd r2) 0 then [] else [(s, Open, snd r2)].
Proof. unfold future_legs. cbv zeta. destruct (qle_b _ 0); [|destruct (qle_b _ 0)]; rewrite ?app_nil_r; reflexivity. Qed.
Theorem future_legs_spec s q1 old today : 0 < q1 -> legs_ok s 0 q1 (future_legs s q1 old today).
Proof. intros Hq. rewrite future_legs_eq. cbv zeta.
  apply close_leg_then; [assumption|apply le_n|]. apply rest_ok. intros Q2.
  apply close_leg_then; [assumption|apply le_n|]. apply rest_ok. intros Q3.
  split; [cbn; auto|]. split; [cbn; ring|]. intros s' e' q' [[= <- <- <-]|[]]. auto. Qed.
