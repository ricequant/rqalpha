From RQ Require Import Model.Num Model.Costs Proofs.NumFacts.
From Coq Require Import Lqa.
Open Scope Q_scope.

Lemma cost_eq c p q : qmul (qmul (qmul p q) (sc_rate c)) (sc_mult c) == fill_cost c (p, q).
Proof. unfold fill_cost. cbn [fst snd]. qnorm. ring. Qed.

Lemma sum_cost_nonneg c fills : Forall (fun f => 0 <= fill_cost c f) fills -> 0 <= sum_cost c fills.
Proof. induction 1; cbn [sum_cost]; lra. Qed.

(* once the map entry is Some r (r of the minimum is still unspent), the further fills are charged max 0 (their cost - r) *)
Lemma run_later c r fills :
  0 <= r -> Forall (fun f => 0 <= fill_cost c f) fills ->
  run_commission c (Some r) fills == qmax 0 (sum_cost c fills - r).
Proof.
  revert r. induction fills as [|[p q] t IH]; intros r Hr Hf; cbn [run_commission sum_cost].
  - rewrite qmax_l; lra.
  - inversion Hf as [|? ? Hc Hf']; subst. pose proof (sum_cost_nonneg c t Hf') as Hs.
    unfold trade_commission. cbn [cm_read cm_absent]. rewrite <- (cost_eq c p q) in *.
    set (k := qmul (qmul (qmul p q) (sc_rate c)) (sc_mult c)) in *.
    qcase (qlt_b r k) H; cbn [fst snd]; rewrite IH, qsub_ok by (assumption || rewrite ?qsub_ok; lra).
    + rewrite !qmax_r by lra. ring.
    + rewrite Qplus_0_l. apply qmax_comp; [reflexivity|ring].
Qed.

(* an order without an entry is charged the whole minimum at its first fill and from there on is an order whose entry holds the minimum *)
Lemma run_none c f t : run_commission c None (f :: t) == sc_min c + run_commission c (Some (sc_min c)) (f :: t).
Proof. destruct f as [p q]. cbn [run_commission]. unfold trade_commission. cbn [cm_read cm_absent].
  destruct (qlt_b (sc_min c) _); cbn [fst snd]; rewrite ?qsub_ok; ring. Qed.

Theorem split_independent c fills :
  0 <= sc_min c -> Forall (fun f => 0 <= fill_cost c f) fills -> fills <> [] ->
  run_commission c None fills == qmax (sc_min c) (sum_cost c fills).
Proof.
  intros Hm Hf Hne. destruct fills as [|f t]; [congruence|]. rewrite run_none, (run_later c _ _ Hm Hf), qmax_plus. apply qmax_comp; ring.
Qed.

(* the schedule the property names: rate * multiplier * total turnover *)
Fixpoint turnover (fills : list (Q * Q)) : Q := match fills with [] => 0 | (p, q) :: t => p * q + turnover t end.
Lemma sum_cost_turnover c fills : sum_cost c fills == sc_rate c * sc_mult c * turnover fills.
Proof. induction fills as [|[p q] t IH]; cbn [sum_cost turnover]; [ring|]. rewrite IH. unfold fill_cost. cbn [fst snd]. ring. Qed.

Lemma stock_tax_spec c is_cs sell m :
  stock_tax c is_cs sell m == if is_cs && sell then m * sc_tax_rate c * sc_tax_mult c else 0.
Proof. unfold stock_tax. destruct is_cs, sell; cbn [negb andb]; qnorm; reflexivity. Qed.
