From RQ Require Import Model.Num Model.ModLife.
From Coq Require Import Lia Sorted Permutation.
Open Scope Z_scope.

Definition prio_le (a b : modspec) : Prop := md_priority a <= md_priority b.
Lemma insert_perm m l : Permutation (m :: l) (insert_mod m l).
Proof. induction l as [|x t IH]; cbn; [reflexivity|]. destruct (md_priority m <? md_priority x); [reflexivity|].
  rewrite perm_swap. constructor. assumption. Qed.
Lemma insert_hd m l x : HdRel prio_le x l -> prio_le x m -> HdRel prio_le x (insert_mod m l).
Proof. intros H Hm. destruct l as [|y t]; cbn; [constructor; assumption|]. destruct (md_priority m <? md_priority y); constructor; [assumption|].
  inversion H; assumption. Qed.
Lemma insert_sorted m l : Sorted prio_le l -> Sorted prio_le (insert_mod m l).
Proof. induction l as [|x t IH]; intros H; cbn; [repeat constructor|]. destruct (md_priority m <? md_priority x) eqn:E.
  - constructor; [assumption|]. constructor. unfold prio_le. lia.
  - inversion H; subst. constructor; [apply IH; assumption|]. apply insert_hd; [assumption|]. unfold prio_le. lia. Qed.
Lemma sort_spec l : forall acc, Sorted prio_le acc -> Sorted prio_le (fold_left (fun a m => insert_mod m a) l acc) /\
                                 Permutation (rev l ++ acc) (fold_left (fun a m => insert_mod m a) l acc).
Proof. induction l as [|m t IH]; intros acc H; cbn [fold_left rev]; [split; [assumption|reflexivity]|].
  destruct (IH (insert_mod m acc) (insert_sorted m acc H)) as [S P]. split; [assumption|].
  rewrite <- P. rewrite <- app_assoc. cbn [app]. apply Permutation_app_head. apply insert_perm. Qed.

Lemma callbacks_only k n stop e : In e (callbacks k n stop) -> exists j, e = LCallback j.
Proof. revert k. induction n as [|n IH]; intros k; cbn [callbacks]; [intros []|]. intros [<-|H]; [eexists; reflexivity|].
  destruct (match stop with Some s => Nat.eqb s k | None => false end); [destruct H|exact (IH _ H)]. Qed.
Lemma run_mods_events mods n f e : In e (run_mods mods n f) ->
  (exists m, e = LStart m) \/ (exists j, e = LCallback j) \/ (exists m r, e = LTearDown m (code_of f) r) \/
  e = LResult (match f with NoFault => true | _ => false end).
Proof. unfold run_mods. intros H. repeat (apply in_app_or in H; destruct H as [H|H]).
  - apply in_map_iff in H. destruct H as (x & <- & _). eauto.
  - right; left. exact (callbacks_only _ _ _ _ H).
  - apply in_map_iff in H. destruct H as (x & <- & _). eauto 6.
  - destruct H as [<-|[]]. auto. Qed.
Theorem failed_run_has_no_report mods n f : f <> NoFault -> In (LResult true) (run_mods mods n f) -> False.
Proof. intros Hf H. apply run_mods_events in H. destruct H as [[? H]|[[? H]|[(? & ? & H)|H]]]; try discriminate.
  destruct f; [congruence|discriminate..]. Qed.
