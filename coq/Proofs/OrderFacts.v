From RQ Require Import Model.Num Model.Matcher Model.Order Proofs.NumFacts.
From Coq Require Import Lqa.
Open Scope Q_scope.

Definition pstate_of (o : ostate) : pstate :=
  match os_status o with PendingNew => P0 | Active => P2 | SFilled => P2 | PendingCancel => P3 | _ => PDone end.

Definition OWF (o : ostate) : Prop :=
  0 < os_qty o /\ 0 <= os_filled o /\ os_filled o <= os_qty o /\
  match os_status o with
  | PendingNew => os_place o = Nowhere /\ os_filled o == 0
  | Active => os_place o <> Nowhere /\ os_filled o < os_qty o
  | SFilled => os_place o = Nowhere /\ os_filled o == os_qty o
  | SCancelled | SRejected => os_place o = Nowhere /\ os_filled o < os_qty o
  | PendingCancel => False            (* never entered in back-testing: cancel_order goes straight to CANCELLED *)
  end.
(* inputs the broker can produce: fills are positive and within the remainder (C06), and a trading day's
   before_trading follows the previous day's after_trading (C08), so nothing is resting in _open_orders *)
Definition in_ok (o : ostate) (i : oin) : Prop :=
  match i with
  | IMatch (Filled _ q _ _) _ => 0 < q /\ q <= os_qty o - os_filled o
  | IBeforeTrading => os_place o <> InOpen
  | ICancel => os_status o <> PendingNew      (* only orders handed back by an order API (submitted ones) can be cancelled *)
  | _ => True
  end.

Definition legal (a b : status) : Prop :=
  a = b \/ (a = PendingNew /\ (b = Active \/ b = SRejected)) \/ (a = Active /\ (b = SFilled \/ b = SCancelled \/ b = SRejected)).

(* what one input can make a well-formed order do: the events it announces and the state it is left in *)
Inductive closing : list oev -> status -> Prop :=
| cl_rejected : closing [EvUnsolicited SRejected] SRejected
| cl_cancelled : closing [EvUnsolicited SCancelled] SCancelled
| cl_user : closing [EvPendingCancel; EvCancellationPass] SCancelled.
Inductive otrans (o : ostate) : list oev -> ostate -> Prop :=
| ot_same : otrans o [] o                                                             (* the input does not concern the order *)
| ot_rest : os_status o = Active -> otrans o [] (with_status o Active InOpen)          (* no match: it rests in _open_orders *)
| ot_submit pl : os_status o = PendingNew -> pl <> Nowhere -> otrans o [EvPendingNew; EvCreationPass] (with_status o Active pl)
| ot_end evs st : os_status o = Active -> closing evs st -> otrans o evs (with_status o st Nowhere)   (* matcher, user or the close *)
| ot_fill p q f : os_status o = Active -> 0 < q -> q == os_qty o - os_filled o ->      (* the fill that completes the order *)
    otrans o [EvTrade p q f] (with_status (order_fill o p q f) SFilled Nowhere)
| ot_part p q f (c : bool) : os_status o = Active -> 0 < q -> q < os_qty o - os_filled o ->   (* a partial fill; c: the matcher cancels the rest *)
    otrans o (EvTrade p q f :: if c then [EvUnsolicited SCancelled] else [])
           (if c then with_status (order_fill o p q f) SCancelled Nowhere else with_status (order_fill o p q f) Active InOpen).

Lemma listed_active o : OWF o -> os_place o <> Nowhere -> os_status o = Active.
Proof. intros (_ & _ & _ & H) N. destruct (os_status o); tauto. Qed.

Lemma out_mark o st : is_final (os_status o) = false -> out (mark o st) = with_status o st Nowhere.
Proof. intros F. unfold mark. rewrite F. reflexivity. Qed.
Lemma mark_qty o st : os_qty (mark o st) = os_qty o.
Proof. unfold mark. destruct (is_final (os_status o)); reflexivity. Qed.

(* Order.fill marks the order FILLED iff nothing is left *)
Lemma fill_completes o p q f : os_status o = Active -> q <= os_qty o - os_filled o ->
  (os_status (order_fill o p q f) = SFilled /\ q == os_qty o - os_filled o) \/ (os_status (order_fill o p q f) = Active /\ q < os_qty o - os_filled o).
Proof. intros S H1. cbn [order_fill os_status]. rewrite S. qcase (qeq_b (qsub (os_qty o) (qadd (os_filled o) q)) 0) E; rewrite qsub_ok, qadd_ok in E;
  [left|right]; (split; [reflexivity|]); [lra|apply Qnot_le_lt; intros L; apply E; lra]. Qed.

Lemma ostep_trans o i : OWF o -> in_ok o i -> otrans o (snd (ostep o i)) (fst (ostep o i)).
Proof.
  intros W I. pose proof (listed_active o W) as A. destruct i as [auction|r fee| | |]; cbn [ostep].
  - (* submit_order *) destruct (os_status o) eqn:S, (os_place o); try apply ot_same. apply ot_submit; [exact S|destruct auction; discriminate].
  - (* a matching round: a listed order is active *)
    destruct (os_place o) eqn:P; [apply ot_same|..]; (assert (S : os_status o = Active) by (apply A; discriminate)); rewrite S; cbn [is_final];
      (destruct r as [|rr|rr|price q ct rc]; rewrite ?out_mark by (rewrite S; reflexivity); cbn [fst snd];
       [apply ot_rest; exact S|apply ot_end; [exact S|constructor]..|]).
    (* a fill: either it completes the order ... *)
    all: destruct I as [I0 I1]; cbv zeta; destruct (fill_completes o price q fee S I1) as [[St I2]|[St I2]]; rewrite St; cbn [is_final];
      [unfold out; rewrite St; apply ot_fill; assumption|].
    (* ... or it is partial, and the matcher cancels the rest (a market order) or lets it rest *)
    all: destruct rc; cbn [fst snd]; [rewrite out_mark by (rewrite St; reflexivity); exact (ot_part o price q fee true S I0 I2)|exact (ot_part o price q fee false S I0 I2)].
  - (* cancel_order *) destruct (is_final (os_status o)) eqn:F; [apply ot_same|]. rewrite out_mark by exact F. apply ot_end; [|constructor].
    destruct W as (_ & _ & _ & H). cbn [in_ok] in I. destruct (os_status o); try discriminate; [congruence|reflexivity|contradiction].
  - (* before_trading *) cbn [in_ok] in I. destruct (os_place o); try apply ot_same. congruence.
  - (* after_trading *) destruct (os_place o) eqn:P; try apply ot_same. assert (S : os_status o = Active) by (apply A; discriminate).
    rewrite out_mark by (rewrite S; reflexivity). apply ot_end; [exact S|constructor].
Qed.

Lemma prun_app p a b : prun p (a ++ b) = prun (prun p a) b.
Proof. unfold prun. apply fold_left_app. Qed.

Lemma order_fill_eq o p q f : 0 <= os_filled o -> 0 < q ->
  let o1 := order_fill o p q f in
  os_filled o1 == os_filled o + q /\ os_avg o1 * os_filled o1 == os_avg o * os_filled o + p * q /\ os_tcost o1 == os_tcost o + f /\
  os_qty o1 = os_qty o.
Proof. intros H0 Hq. cbn [order_fill os_filled os_avg os_tcost os_qty].
  split; [apply qadd_ok|]. split; [rewrite qdiv_ok, !qadd_ok, !qmul_ok; field; lra|]. split; [apply qadd_ok|reflexivity]. Qed.

(* what a transition keeps and announces: well-formedness, the protocol automaton, a legal edge, and the fill bookkeeping moved by the trade *)
Lemma otrans_ok o evs o' : OWF o -> otrans o evs o' ->
  OWF o' /\ prun (pstate_of o) evs = pstate_of o' /\ legal (os_status o) (os_status o') /\
  os_filled o' == os_filled o + traded_qty evs /\ os_avg o' * os_filled o' == os_avg o * os_filled o + traded_value evs /\
  os_tcost o' == os_tcost o + traded_fees evs.
Proof.
  intros W T. pose proof W as (Hq & Hf0 & Hfq & Hs).
  destruct T as [ |S|pl S Hp|evs st S C|p q f S Hq0 Hq1|p q f c S Hq0 Hq1]; unfold OWF, pstate_of, legal;
    try rewrite S in *; cbn [with_status os_status os_qty os_filled os_place os_avg os_tcost].
  - (* nothing *) repeat split; try assumption; try (left; reflexivity); cbn; ring.
  - (* it rests *) repeat split; try discriminate; try tauto; cbn; ring.
  - (* submitted *) repeat split; try lra; try tauto; cbn; ring.
  - (* ended *) destruct C; cbn; repeat split; try lra; try tauto; ring.
  - (* filled *) destruct (order_fill_eq o p q f Hf0 Hq0) as (F1 & F2 & F3 & F4). rewrite F4.
    cbn [traded_qty traded_value traded_fees prun fold_left pstep]. repeat split; try lra; tauto.
  - (* partly filled *) destruct (order_fill_eq o p q f Hf0 Hq0) as (F1 & F2 & F3 & F4).
    destruct c; cbn [with_status os_status os_qty os_filled os_place os_avg os_tcost traded_qty traded_value traded_fees prun fold_left pstep];
      rewrite F4; repeat split; try lra; try tauto; discriminate.
Qed.

Fixpoint ins_ok (o : ostate) (ins : list oin) : Prop :=
  match ins with [] => True | i :: t => in_ok o i /\ ins_ok (fst (ostep o i)) t end.

Lemma traded_qty_app a b : traded_qty (a ++ b) == traded_qty a + traded_qty b.
Proof. induction a as [|[| |p q f|s| |] t IH]; cbn; [ring|try exact IH ..]. rewrite IH. ring. Qed.
Lemma traded_value_app a b : traded_value (a ++ b) == traded_value a + traded_value b.
Proof. induction a as [|[| |p q f|s| |] t IH]; cbn; [ring|try exact IH ..]. rewrite IH. ring. Qed.
Lemma traded_fees_app a b : traded_fees (a ++ b) == traded_fees a + traded_fees b.
Proof. induction a as [|[| |p q f|s| |] t IH]; cbn; [ring|try exact IH ..]. rewrite IH. ring. Qed.

Theorem orun_ok ins : forall o, OWF o -> ins_ok o ins ->
  OWF (fst (orun o ins)) /\ prun (pstate_of o) (snd (orun o ins)) = pstate_of (fst (orun o ins)) /\
  os_filled (fst (orun o ins)) == os_filled o + traded_qty (snd (orun o ins)) /\
  os_avg (fst (orun o ins)) * os_filled (fst (orun o ins)) == os_avg o * os_filled o + traded_value (snd (orun o ins)) /\
  os_tcost (fst (orun o ins)) == os_tcost o + traded_fees (snd (orun o ins)).
Proof.
  induction ins as [|i t IH]; intros o W I; cbn [orun fst snd].
  - split; [assumption|]. split; [reflexivity|]. cbn [traded_qty traded_value traded_fees]. repeat split; ring.
  - destruct I as [I0 It]. destruct (otrans_ok _ _ _ W (ostep_trans o i W I0)) as (W1 & P1 & _ & Q1 & V1 & F1).
    destruct (IH _ W1 It) as (W2 & P2 & Q2 & V2 & F2).
    rewrite prun_app, P1, traded_qty_app, traded_value_app, traded_fees_app. split; [exact W2|]. split; [exact P2|]. repeat split; lra.
Qed.

Lemma fresh_wf qty : 0 < qty -> OWF (fresh_order qty).
Proof. intros H. unfold OWF, fresh_order; cbn. repeat split; try lra; reflexivity. Qed.
