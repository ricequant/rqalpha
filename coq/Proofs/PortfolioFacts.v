From RQ Require Import Model.Num Model.Position Model.Portfolio Proofs.NumFacts.
Open Scope Q_scope.

Lemma deposit_units p tv0 tv1 : ~ pf_units p == 0 -> ~ tv0 == 0 ->
  pf_units (pf_deposit p tv0 tv1) == pf_units p * (tv1 / tv0).
Proof. intros Hu Ht. unfold pf_deposit, unit_net_value. cbn [pf_units]. unfold unit_net_value. qnorm. field. split; assumption. Qed.
Lemma deposit_keeps_static p a b : pf_static (pf_deposit p a b) = pf_static p. Proof. reflexivity. Qed.

Lemma compound_telescopes navs : forall prev, ~ prev == 0 -> Forall (fun n => ~ n == 0) navs ->
  compound prev navs == lastq prev navs / prev.
Proof. induction navs as [|n t IH]; intros prev Hp Hf; cbn [compound lastq].
  - field. assumption.
  - inversion Hf as [|? ? Hn Ht]; subst. rewrite (IH n Hn Ht). field. split; assumption. Qed.

(* the side condition of the futures day: fills are positive and closes stay within the quantity held *)
Fixpoint fwf_run (c : pcfg) (s : pos * Q) (evs : list dev) : Prop :=
  match evs with
  | [] => True
  | e :: t => (forall tr, e = DTrade tr -> 0 < t_qty tr /\ (t_effect tr <> Open -> t_qty tr <= p_qty (fst s))) /\ fwf_run c (dstep c s e) t
  end.
