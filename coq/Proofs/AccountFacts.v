From RQ Require Import Model.Num Model.Position Model.Account Model.AccountRun Proofs.NumFacts Proofs.PositionFacts.
From Coq Require Import Lia.
Open Scope Q_scope.

Lemma nth_error_upd_same {A} (l : list A) i x y : nth_error l i = Some y -> nth_error (upd i x l) i = Some x.
Proof. revert i. induction l as [|h t IH]; intros [|i] H; cbn in *; try discriminate; auto. Qed.
Lemma nth_error_upd_other {A} (l : list A) i j x : i <> j -> nth_error (upd i x l) j = nth_error l j.
Proof. revert i j. induction l as [|h t IH]; intros [|i] [|j] H; cbn; try reflexivity; try congruence. apply IH. congruence. Qed.
Lemma upd_length {A} (l : list A) i x : length (upd i x l) = length l.
Proof. revert i. induction l as [|h t IH]; intros [|i]; cbn; auto. Qed.

Lemma sum_pos_upd f l i c p p' : nth_error l i = Some (c, p) ->
  sum_pos f (upd i (c, p') l) == sum_pos f l - f c p + f c p'.
Proof. revert i. induction l as [|[c0 p0] t IH]; intros [|i] H; cbn in *; try discriminate.
  - injection H as -> ->. ring. - rewrite (IH i H). ring. Qed.
Lemma sum_margin_upd g l i c p p' n : nth_error l i = Some (c, p) ->
  sum_margin g n (upd i (c, p') l) == sum_margin g n l - margin c (ac_margin_rate g (n + i)) p + margin c (ac_margin_rate g (n + i)) p'.
Proof. revert i n. induction l as [|[c0 p0] t IH]; intros [|i] n H; cbn in *; try discriminate.
  - injection H as -> ->. rewrite Nat.add_0_r. ring.
  - rewrite (IH i (S n) H). replace (S n + i)%nat with (n + S i)%nat by lia. ring. Qed.

Lemma on_entry_cash a i f :
  a_total_cash (on_entry a i f) == a_total_cash a + match entry a i with Some (c, p) => snd (f c p) | None => 0 end.
Proof. unfold on_entry, entry, set_entry. destruct (nth_error (a_pos a) i) as [[c p]|] eqn:E; rewrite ?E; cbn; qnorm; ring. Qed.
Lemma on_entry_frozen a i f : a_frozen (on_entry a i f) = a_frozen a.
Proof. unfold on_entry, set_entry. destruct (nth_error (a_pos a) i) as [[c p]|] eqn:E; rewrite ?E; reflexivity. Qed.

Lemma cash_step g a e : a_total_cash (astep g a e) == a_total_cash a + cash_contrib g a e.
Proof.
  destruct e as [i t ord|r|r|i price|x|d x|today|x|x| |i|i dps payable|i today|i r|i cr|i s|i|fee|en]; cbn [astep cash_contrib].
  (* the events that replace one entry (EReset .. EExpire): the cash moves by what the entry's update returns *)
  11-17: rewrite on_entry_cash; destruct (entry a i) as [[c p]|]; [apply Qplus_comp; [reflexivity|]; cbn [snd]|reflexivity].
  - (* ETrade *) unfold acc_apply_trade, entry. destruct (nth_error (a_pos a) i) as [[c p]|]; [|cbn; ring]. cbn [a_total_cash]. rewrite qadd_ok.
    apply Qplus_comp; [reflexivity|]. destruct (pc_kind c) eqn:K; [rewrite stock_trade_cash by exact K|rewrite future_trade_cash by exact K];
      unfold sgn; destruct (t_effect t); ring.
  - (* EReserve *) cbn. ring.
  - (* ERelease *) cbn. ring.
  - (* EMark *) unfold mark. destruct (nth_error (a_pos a) i) as [[c p]|]; cbn; ring.
  - (* EDeposit *) apply qadd_ok.
  - (* EDepositPending *) cbn. ring.
  - (* EArrive *) apply qadd_ok.
  - (* EFinance *) apply qadd_ok.
  - (* ERepay *) cbn. rewrite qsub_ok, qadd_ok. ring.
  - (* EInterest *) unfold accrue_interest. destruct (qlt_b 0 (a_liab a)); cbn; ring.
  - (* EReset *) reflexivity.
  - (* EBook *) reflexivity.
  - (* EPay *) unfold bt_pay. destruct (p_recv p) as [[d v]|]; [|reflexivity]. destruct (d =? today)%Z; reflexivity.
  - (* ESplit *) reflexivity.
  - (* EDelist *) unfold stock_delist. destruct (qeq_b (p_qty p) 0); [reflexivity|]. destruct cr; cbn [fst snd]; [apply qmul_ok|reflexivity].
  - (* ESettleFut *) destruct (pc_kind c) eqn:K; [reflexivity|]. unfold fut_settle. destruct (qeq_b (p_qty p) 0); [reflexivity|]. cbn [snd].
    rewrite qadd_ok, future_equity by exact K. cbn [p_qty p_last p_avg]. ring.
  - (* EExpire *) destruct (pc_kind c) eqn:K; [reflexivity|exact (fut_expire_cash c p K)].
  - (* EMgmt *) cbn. rewrite qsub_ok. ring.
  - (* ELiquidate *) unfold forced_liquidation. destruct (qle_b (total_value g a) 0 && en); cbn; ring.
Qed.

Theorem cash_ledger g evs : forall a, a_total_cash (arun g a evs) == a_total_cash a + audit_cash g a evs.
Proof. induction evs as [|e t IH]; intros a; cbn [arun fold_left audit_cash]; [ring|].
  fold (arun g (astep g a e) t). rewrite IH, cash_step. ring. Qed.

Lemma total_value_eq g a :
  total_value g a == a_total_cash a + sum_pos equity (a_pos a) - a_liab a - a_liab a * ac_fin_rate g / 365 + sum_pending (a_pending a).
Proof. unfold total_value, position_equity, interest. rewrite qdiv_ok, qmul_ok. reflexivity. Qed.

(* replacing entry i and moving cash changes total value by the cash and by the entry's change of equity *)
Lemma value_set_entry g a i c p p' cash' fr mf : nth_error (a_pos a) i = Some (c, p) ->
  total_value g {| a_total_cash := cash'; a_frozen := fr; a_liab := a_liab a; a_pending := a_pending a; a_mgmt_fees := mf;
                   a_pos := upd i (c, p') (a_pos a) |} == total_value g a + (equity c p' - equity c p) + (cash' - a_total_cash a).
Proof. intros H. rewrite !total_value_eq. cbn [a_total_cash a_pos a_liab a_pending]. rewrite (sum_pos_upd equity _ _ _ _ _ H). ring. Qed.
Lemma value_on_entry g a i f c p : nth_error (a_pos a) i = Some (c, p) ->
  total_value g (on_entry a i f) == total_value g a + (equity c (fst (f c p)) + snd (f c p) - equity c p).
Proof. intros H. unfold on_entry, set_entry. rewrite H, (value_set_entry g a i c p _ _ _ _ H), qadd_ok. ring. Qed.

Lemma sum_pending_insert d x l : sum_pending (insert_pending d x l) == x + sum_pending l.
Proof. induction l as [|[d' x'] t IH]; cbn; [ring|]. destruct (d <? d')%Z; cbn; [ring|]. rewrite IH. ring. Qed.
Lemma arrive_conserves today l : fst (arrive today l) + sum_pending (snd (arrive today l)) == sum_pending l.
Proof. induction l as [|[d x] t IH]; cbn; [ring|]. destruct (d <=? today)%Z; cbn [fst snd sum_pending]; [|ring]. rewrite qadd_ok, <- IH. ring. Qed.
Lemma value_arrive g a today : total_value g (astep g a (EArrive today)) == total_value g a.
Proof. rewrite !total_value_eq. cbn [astep a_total_cash a_pos a_liab a_pending]. rewrite qadd_ok, <- (arrive_conserves today (a_pending a)). ring. Qed.
Lemma value_finance g a x : total_value g (astep g a (EFinance x)) == total_value g a - x * ac_fin_rate g / 365.
Proof. rewrite !total_value_eq. cbn [astep finance a_total_cash a_pos a_liab a_pending]. rewrite !qadd_ok. field. Qed.
Lemma value_reset g a i c p : nth_error (a_pos a) i = Some (c, p) ->
  total_value g (astep g a (EReset i)) == total_value g a.
Proof. intros H. cbn [astep]. rewrite (value_on_entry g a i _ c p H). cbn [fst snd].
  unfold equity, bt_reset, receivable. destruct (pc_kind c); cbn [p_qty p_last p_avg p_recv]; ring. Qed.
(* expiry moves no value, marked or not: the cash takes (last - carrying price) * quantity, signed, which is the equity that goes *)
Lemma value_expire g a i c p : nth_error (a_pos a) i = Some (c, p) -> pc_kind c = FuturePos ->
  total_value g (astep g a (EExpire i)) == total_value g a.
Proof. intros H K. cbn [astep]. rewrite (value_on_entry g a i _ c p H), K, !future_equity, fut_expire_cash by exact K.
  cbn [fut_expire fst set_qty p_qty]. ring. Qed.
