(* Handlers registered with subscribe_event: what the finite check over the regenerated table means for every event and phase;
   and how far an event gets along the system listeners of the bus. *)
From Coq Require Import List.
From RQ Require Import Model.Phases.
Import ListNotations.
Open Scope string_scope.

Lemma xphase_eqb_eq a b : xphase_eqb a b = true -> a = b.
Proof. destruct a, b; cbn; intros H; try reflexivity; discriminate. Qed.

(* if the table follows the split map, then the handler of every part (PRE_E, E, POST_E) of a day-phase event E runs in E's own phase,
   whatever phase happens to be on the stack, and an event without an entry keeps the enclosing phase *)
Theorem handler_phase_sound split t fb : handlers_follow_split split t fb = true ->
  (forall e p parts part enclosing, In (e, p) day_phase_events -> lookup e split = Some parts -> In part parts ->
     handler_phase t fb part enclosing = p) /\
  (forall ev enclosing, lookup ev t = None -> handler_phase t fb ev enclosing = enclosing).
Proof.
  unfold handlers_follow_split. intros H. apply andb_prop in H as [Hfb H]. subst fb. split.
  - intros e p parts part enclosing Hin Hl Hp. rewrite forallb_forall in H. specialize (H (e, p) Hin). cbn [fst snd] in H.
    rewrite Hl, forallb_forall in H. specialize (H part Hp). unfold handler_phase.
    destruct (lookup part t) as [q|]; [apply xphase_eqb_eq, H|discriminate].
  - intros ev enclosing Hn. unfold handler_phase. rewrite Hn. reflexivity.
Qed.

(* a system listener that returns a truthy value cuts the others off *)
Theorem delivered_cut {E} (pre post : list (E -> bool)) (l : E -> bool) (e : E) : (forall x, In x pre -> x e = false) -> l e = true ->
  delivered (pre ++ l :: post) e = S (List.length pre).
Proof. induction pre as [|x t IH]; intros H T; cbn; [rewrite T; reflexivity|]. rewrite (H x (or_introl eq_refl)). f_equal. apply IH; [|exact T].
  intros y Hy. apply H. right. exact Hy. Qed.
