From Coq Require Import Lia.
From RQ Require Import Model.Num Model.Calendar Model.View Proofs.CalendarFacts.
Open Scope Z_scope.

Lemma bar_at_none (P : Z -> Prop) s d : ~ P d -> Forall (fun b => P (d_dt b)) s -> bar_at s d = None.
Proof.
  intros Hd. induction 1 as [|b s Hb _ IH]; cbn [bar_at]; [reflexivity|].
  destruct (Z.eqb_spec (d_dt b) d) as [<-|_]; [contradiction | exact IH].
Qed.
(* behind a common prefix, what is read at d depends only on what the two tails hold at d *)
Lemma on_bar_app {A} (f : dbar -> A) dflt p s1 s2 d : on_bar f dflt (bar_at s1 d) = on_bar f dflt (bar_at s2 d) ->
  on_bar f dflt (bar_at (p ++ s1) d) = on_bar f dflt (bar_at (p ++ s2) d).
Proof. intros H. induction p as [|b p IH]; cbn [app bar_at]; [exact H|]. destruct (d_dt b =? d); [reflexivity | exact IH]. Qed.
Lemma Forall_firstn {A} (P : A -> Prop) n l : Forall P l -> Forall P (firstn n l).
Proof. intros H. rewrite <- (firstn_skipn n l) in H. apply Forall_app in H. apply H. Qed.

Lemma nth_below_cnt_lt d cal : forall i, (i < cnt_ltn d cal)%nat -> nth i cal 0 < d.
Proof.
  induction cal as [|y t IH]; cbn [cnt_ltn]; intros i Hi; [lia|].
  destruct (y <? d) eqn:E; [|lia]. destruct i as [|i]; cbn [nth]; [lia|]. apply IH. lia.
Qed.
(* the previous trading date is strictly earlier, unless the day is the first one of the calendar *)
Lemma prev_before cal d : 1 <= cnt_lt d cal -> prev_trading_date cal d 1 < d.
Proof.
  intros H. unfold prev_trading_date. destruct (1 <=? cnt_lt d cal) eqn:E; [|lia].
  unfold nthz, cnt_lt in *. apply nth_below_cnt_lt. lia.
Qed.
Lemma visible_day_le cal ph d : 1 <= cnt_lt d cal -> visible_day cal ph d <= d.
Proof. intros H. pose proof (prev_before cal d H). destruct ph; cbn [visible_day]; lia. Qed.

(* an accessor that shows f of the bar dated d' agrees on the two histories: before the open for d' in the past; later in the day also for
   today's bar; at the auction for today's bar when f shows no more of it than the auction does *)
Lemma agree_on_bar ph d h1 h2 (f : dbar -> obs) d' : agree ph d h1 h2 ->
  match ph with
  | VBeforeTrading => d' < d
  | VOpenAuction => d' = d /\ forall b1 b2, auction_view b1 = auction_view b2 -> f b1 = f b2
  | _ => d' <= d
  end -> on_bar f no_view (bar_at h1 d') = on_bar f no_view (bar_at h2 d').
Proof.
  intros (p & s1 & s2 & -> & -> & H) Hd. apply on_bar_app.
  destruct ph; cbn in Hd; [| |destruct H as [H1 H2]; rewrite !(bar_at_none (fun x => d < x)) by (assumption || lia); reflexivity..].
  - (* before the open *) destruct H as [H1 H2]. rewrite !(bar_at_none (fun x => d <= x)) by (assumption || lia). reflexivity.
  - (* at the auction *) destruct Hd as [-> Hf], H as [[H1 H2] | (b1 & b2 & t1 & t2 & -> & -> & E1 & E2 & Ev & _)].
    + rewrite !(bar_at_none (fun x => d < x)) by (assumption || lia). reflexivity.
    + cbn [bar_at]. rewrite E1, E2, Z.eqb_refl. apply Hf, Ev.
Qed.
Lemma auction_view_self b1 b2 : auction_view b1 = auction_view b2 -> auction_view b1 = auction_view b2.
Proof. auto. Qed.
Lemma auction_tick_from_view b1 b2 : auction_view b1 = auction_view b2 -> auction_tick b1 = auction_tick b2.
Proof. unfold auction_view, auction_tick. intros [= -> _ -> -> -> ->]. reflexivity. Qed.

Lemma cnt_len_app_later {A} (f : A -> Z) t dt p s : dt <= t -> Forall (fun x => t < f x) s -> cnt_len dt (map f (p ++ s)) = cnt_len dt (map f p).
Proof.
  intros Hd Hs. induction p as [|y p IH]; cbn [app map cnt_len]; [|rewrite IH; reflexivity].
  destruct Hs as [|x s Hx _]; [reflexivity|]. cbn [map cnt_len]. destruct (f x <=? dt) eqn:E; [lia | reflexivity].
Qed.
Lemma slice_app_prefix {A} (p s : list A) a b : 0 <= a -> b <= lenz p -> slicez a b (p ++ s) = slicez a b p.
Proof.
  intros Ha Hb. unfold lenz in Hb. rewrite !slicez_spec, firstn_app by assumption.
  replace (Z.to_nat b - length p)%nat with O by lia. cbn [firstn]. rewrite app_nil_r. reflexivity.
Qed.
Lemma window_app t dt n p s : dt <= t -> Forall (fun b => t < h_dt b) s ->
  slicez (fst (window_bounds (map h_dt (p ++ s)) dt n)) (snd (window_bounds (map h_dt (p ++ s)) dt n)) (p ++ s) =
  slicez (fst (window_bounds (map h_dt p) dt n)) (snd (window_bounds (map h_dt p) dt n)) p.
Proof.
  intros Hd Hs. unfold window_bounds, cnt_le. rewrite (cnt_len_app_later _ t) by assumption. cbn [fst snd].
  pose proof (cnt_len_le_len dt (map h_dt p)) as L. rewrite map_length in L.
  apply slice_app_prefix; [destruct (n <=? _) eqn:C | unfold lenz]; lia.
Qed.
Lemma filter_later {A} (f g : A -> bool) s : Forall (fun b => g b = true) s -> Forall (fun b => g b = true) (filter f s).
Proof. apply incl_Forall, incl_filter. Qed.
Lemma history_window_app t p s skip is_cs dt n : dt <= t -> Forall (fun b => t < h_dt b) s ->
  history_window (p ++ s) skip is_cs dt n = history_window p skip is_cs dt n.
Proof.
  intros Hd Hs. unfold history_window. destruct (skip && is_cs); [rewrite filter_app|]; apply (window_app t); try assumption.
  apply (incl_Forall (incl_filter _ s)), Hs.
Qed.
Theorem history_window_noninterference t h1 h2 skip is_cs dt n :
  hagree t h1 h2 -> dt <= t -> history_window h1 skip is_cs dt n = history_window h2 skip is_cs dt n.
Proof.
  intros (p & s1 & s2 & -> & -> & H1 & H2) Hd.
  rewrite (history_window_app t p s1), (history_window_app t p s2) by assumption. reflexivity.
Qed.

(* every bar of a window is dated no later than the end date *)
Lemma window_dates_le bars skip is_cs dt n : 0 < n -> Forall (fun b => h_dt b <= dt) (history_window bars skip is_cs dt n).
Proof. intros Hn. unfold history_window. cbv zeta. rewrite window_slice by lia. apply Forall_skipn, firstn_cnt_len_le. Qed.

(* adjustment uses only factor rows already in effect *)
Lemma factor_for_app t d p s : p <> [] -> d <= t -> Forall (fun r => t < fst r) s -> factor_for (p ++ s) d = factor_for p d.
Proof.
  intros Hp Hd Hs. unfold factor_for, cnt_le. rewrite (cnt_len_app_later _ t), map_app by assumption. apply app_nth1.
  pose proof (cnt_len_le_len d (map fst p)) as L. rewrite !map_length in *. destruct p; [contradiction|]. cbn [length] in *. lia.
Qed.
Lemma factor_for_agree t T1 T2 d : tagree t T1 T2 -> d <= t -> factor_for T1 d = factor_for T2 d.
Proof. intros (p & s1 & s2 & -> & -> & Hp & H1 & H2) Hd. rewrite !(factor_for_app t) by assumption. reflexivity. Qed.
Lemma forallb_ext_in {A} (f g : A -> bool) l : (forall a, In a l -> f a = g a) -> forallb f l = forallb g l.
Proof. induction l as [|x l IH]; intros H; cbn [forallb]; [reflexivity|]. rewrite (H x), IH; auto using in_eq, in_cons. Qed.
Theorem adjust_noninterference t bars T1 T2 adj k orig :
  tagree t T1 T2 -> orig <= t -> Forall (fun b => h_dt b <= t) bars -> adjust_window bars T1 adj k orig = adjust_window bars T2 adj k orig.
Proof.
  intros HT Ho Hb.
  assert (K : forall b, In b bars -> factor_for T1 (h_dt b) = factor_for T2 (h_dt b)).
  { intros b Hin. apply (factor_for_agree t); [exact HT|]. rewrite Forall_forall in Hb. apply Hb, Hin. }
  unfold adjust_window. rewrite (factor_for_agree t T1 T2 orig HT Ho). destruct adj, k; try reflexivity.
  (* the same test and the same map, bar by bar *)
  all: erewrite forallb_ext_in, map_ext_in; [reflexivity | |]; intros b Hin; cbv beta; rewrite (K b Hin); reflexivity.
Qed.

Lemma history_end_visible cal ph d : fst (history_end false false (hphase_of ph) d (prev_trading_date cal d 1)) = visible_day cal ph d.
Proof. destruct ph; reflexivity. Qed.

(* the whole run: if the views agree at every step up to the cut-off, so do the traces, whatever the strategy does *)
Section RunFacts.
  Variables (State Obs Data View : Type) (view : Data -> nat -> View) (step : State -> nat -> View -> State * Obs).
  Theorem run_noninterference d1 d2 n : forall s t0,
    (forall t, (t0 <= t < t0 + n)%nat -> view d1 t = view d2 t) ->
    run_from State Obs Data View view step d1 s t0 n = run_from State Obs Data View view step d2 s t0 n.
  Proof.
    induction n as [|n IH]; intros s t0 H; cbn [run_from]; [reflexivity|].
    rewrite (H t0) by lia. f_equal. apply IH. intros t Ht. apply H. lia.
  Qed.
  (* the prefix of a longer run up to the cut-off is the run up to the cut-off *)
  Theorem run_prefix d n m : forall s t0, firstn n (run_from State Obs Data View view step d s t0 (n + m)) = run_from State Obs Data View view step d s t0 n.
  Proof. induction n as [|n IH]; intros s t0; cbn [run_from firstn plus]; [reflexivity|]. f_equal. apply IH. Qed.
End RunFacts.
