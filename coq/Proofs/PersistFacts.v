From Coq Require Import Lia.
From RQ Require Import Model.Num Model.EventLoop Model.Persist.
Open Scope Z_scope.

(* what a step or a run publishes is appended to what was published before *)
Lemma xstep_acc s o e : xstep (s, o) e = (fst (xstep (s, []) e), o ++ snd (xstep (s, []) e)).
Proof.
  destruct e as [d t|d t|d t|d t]; unfold xstep; cbn [fst snd]; [..|reflexivity];
    destruct (match x_last_bt s with Some l => l =? d | None => false end); cbn [fst snd]; rewrite ?app_nil_r; reflexivity.
Qed.
Lemma xfold_acc evs : forall s o, fold_left xstep evs (s, o) = (fst (xfold s evs), o ++ snd (xfold s evs)).
Proof.
  unfold xfold. induction evs as [|e evs IH]; intros s o; cbn [fold_left]; [rewrite app_nil_r; reflexivity|].
  rewrite xstep_acc. destruct (xstep (s, []) e) as [s1 o1]. cbn [fst snd].
  rewrite (IH s1 (o ++ o1)), (IH s1 o1). cbn [fst snd]. rewrite app_assoc. reflexivity.
Qed.
Lemma xfold_app s evs1 evs2 :
  xfold s (evs1 ++ evs2) = (fst (xfold (fst (xfold s evs1)) evs2), snd (xfold s evs1) ++ snd (xfold (fst (xfold s evs1)) evs2)).
Proof.
  unfold xfold at 1. rewrite fold_left_app. fold (xfold s evs1). destruct (xfold s evs1) as [s1 o1]. cbn [fst snd].
  apply xfold_acc.
Qed.
(* a run that exited normally has settled its last day; the resumed run does not settle it again *)
Definition settled (d : Z) : xstate := {| x_last_bt := Some d; x_last_settle := Some d |}.
Definition unsettled (d : Z) (ls : option Z) : xstate := {| x_last_bt := Some d; x_last_settle := ls |}.
Lemma oz_eqb_false a l : a <> Some l -> oz_eqb a (Some l) = false.
Proof. intros H. destruct a as [x|]; cbn; [|reflexivity]. destruct (Z.eqb_spec x l); [congruence|reflexivity]. Qed.
Lemma first_event_after_exit d ls d' t rest : d' <> d -> ls <> Some d ->
  xfold (unsettled d ls) (SBeforeTrading d' t :: rest) =
  (fst (xfold (settled d) (SBeforeTrading d' t :: rest)), PSettlement d :: snd (xfold (settled d) (SBeforeTrading d' t :: rest))).
Proof.
  (* both first steps end in the same state; the unsettled one has published the settlement of d before *)
  intros Hd Hls. unfold xfold. cbn [fold_left xstep fst snd x_last_bt x_last_settle unsettled settled oz_eqb].
  rewrite (proj2 (Z.eqb_neq d d')), (oz_eqb_false ls d Hls), Z.eqb_refl by lia. cbn [negb app snd].
  rewrite (xfold_acc rest _ [_; _]), (xfold_acc rest _ [_]). reflexivity.
Qed.

(* for a fresh run the resumable executor is the executor of the lifecycle model (C08): as long as the day of the last before-trading has
   not been settled, the settlement is pending exactly when there has been a before-trading, and the two executors do the same *)
Definition xinv (s : xstate) : Prop :=
  (forall l, x_last_bt s = Some l -> x_last_settle s <> Some l) /\ (x_last_bt s = None -> x_last_settle s = None).
Lemma pending_settles s : xinv s ->
  let pending := match x_last_bt s with Some l => negb (oz_eqb (x_last_settle s) (Some l)) | None => false end in
  (if pending then match x_last_bt s with Some l => [PSettlement l] | None => [] end else []) = match x_last_bt s with Some l => [PSettlement l] | None => [] end /\
  (if pending then x_last_bt s else x_last_settle s) = x_last_bt s.
Proof.
  intros [H1 H2]. cbv zeta. destruct (x_last_bt s) as [l|] eqn:E.
  - rewrite oz_eqb_false by (apply H1; reflexivity). split; reflexivity.
  - rewrite H2 by reflexivity. split; reflexivity.
Qed.
Lemma new_day_inv s d : (match x_last_bt s with Some l => l =? d | None => false end) = false -> xinv {| x_last_bt := Some d; x_last_settle := x_last_bt s |}.
Proof. intros T. split; cbn [x_last_bt x_last_settle]; [intros l [= <-] E; rewrite E in T; lia | discriminate]. Qed.
Lemma xstep_exec s o e : xinv s -> exists s1 o1, xstep (s, o) e = (s1, o1) /\ exec_step (x_last_bt s, o) e = (x_last_bt s1, o1) /\ xinv s1.
Proof.
  intros H. destruct (pending_settles s H) as [E1 E2].
  destruct e as [d t|d t|d t|d t]; unfold xstep, exec_step; cbn [fst snd]; [..|eexists _, _; split; [reflexivity|]; split; [reflexivity | exact H]].
  (* the same day: the state stays; a new day: the settlement is pending *)
  all: destruct (match x_last_bt s with Some l => l =? d | None => false end) eqn:T; cbn [fst snd]; [|rewrite E1, E2]; eexists _, _;
    (split; [reflexivity|]); (split; [reflexivity|]); [exact H | exact (new_day_inv s d T)].
Qed.
Lemma xfold_is_exec evs : forall s o, xinv s ->
  snd (fold_left xstep evs (s, o)) = snd (fold_left exec_step evs (x_last_bt s, o)) /\
  x_last_bt (fst (fold_left xstep evs (s, o))) = fst (fold_left exec_step evs (x_last_bt s, o)).
Proof.
  induction evs as [|e evs IH]; intros s o H; cbn [fold_left]; [split; reflexivity|].
  destruct (xstep_exec s o e H) as (s1 & o1 & -> & -> & H1). apply IH, H1.
Qed.

Definition dates (l : list (Z * Q)) : list Z := map fst l.
