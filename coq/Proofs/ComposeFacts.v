(* The vocabulary of the composition of the per-order lifecycle machine (Model/Order.v, C04) with the reserve machine (Model/Reserve.v, C09):
   what the account hears of the events of the order with a given id, quantity and reserve, as events of the reserve machine.  The
   composition itself is in ComposeManyFacts. *)
From RQ Require Import Model.Num Model.Order Model.Reserve.
Open Scope Q_scope.

Section One.
  Variables (id : nat) (qty reserve : Q).
  Definition mk (f : Q) : rorder := {| r_id := id; r_qty := qty; r_filled := f; r_reserve := reserve |}.
  (* what the account hears of the order's events *)
  Definition rev_of (e : oev) : list rev :=
    match e with
    | EvPendingNew => [RPendingNew (mk 0)]
    | EvTrade _ q _ => [RTrade id q]
    | EvUnsolicited _ => [RTerminal id]
    | EvCancellationPass => [RTerminal id]
    | _ => []
    end.
  Definition revs_of (evs : list oev) : list rev := flat_map rev_of evs.

  Lemma revs_of_app a b : revs_of (a ++ b) = revs_of a ++ revs_of b.
  Proof. unfold revs_of. apply flat_map_app. Qed.
End One.
