From RQ Require Import Model.Num.
From Coq Require Import Lqa Lia.
Open Scope Q_scope.

Lemma qadd_ok x y : qadd x y == x + y. Proof. unfold qadd; apply Qred_correct. Qed.
Lemma qsub_ok x y : qsub x y == x - y. Proof. unfold qsub; apply Qred_correct. Qed.
Lemma qmul_ok x y : qmul x y == x * y. Proof. unfold qmul; apply Qred_correct. Qed.
Lemma qdiv_ok x y : qdiv x y == x / y. Proof. unfold qdiv; apply Qred_correct. Qed.
Lemma qneg_ok x : qneg x == - x. Proof. unfold qneg; apply Qred_correct. Qed.

Global Instance qadd_comp : Proper (Qeq ==> Qeq ==> Qeq) qadd.
Proof. intros a b H c d H'. rewrite !qadd_ok, H, H'. reflexivity. Qed.
Global Instance qsub_comp : Proper (Qeq ==> Qeq ==> Qeq) qsub.
Proof. intros a b H c d H'. rewrite !qsub_ok, H, H'. reflexivity. Qed.
Global Instance qmul_comp : Proper (Qeq ==> Qeq ==> Qeq) qmul.
Proof. intros a b H c d H'. rewrite !qmul_ok, H, H'. reflexivity. Qed.
Global Instance qdiv_comp : Proper (Qeq ==> Qeq ==> Qeq) qdiv.
Proof. intros a b H c d H'. rewrite !qdiv_ok, H, H'. reflexivity. Qed.
Global Instance qneg_comp : Proper (Qeq ==> Qeq) qneg.
Proof. intros a b H. rewrite !qneg_ok, H. reflexivity. Qed.

(* unfold the normalising operations everywhere *)
Ltac qnorm := rewrite ?qadd_ok, ?qsub_ok, ?qmul_ok, ?qdiv_ok, ?qneg_ok in *.

Lemma qle_b_true x y : qle_b x y = true <-> x <= y.
Proof. unfold qle_b. apply Qle_bool_iff. Qed.
Lemma qle_b_false x y : qle_b x y = false <-> y < x.
Proof. unfold qle_b. split; intro H.
  - destruct (Qlt_le_dec y x) as [L|L]; [assumption|]. apply Qle_bool_iff in L. congruence.
  - apply not_true_is_false. intro E. apply Qle_bool_iff in E. lra. Qed.
Lemma qlt_b_true x y : qlt_b x y = true <-> x < y.
Proof. unfold qlt_b. rewrite negb_true_iff. apply qle_b_false. Qed.
Lemma qlt_b_false x y : qlt_b x y = false <-> y <= x.
Proof. unfold qlt_b. rewrite negb_false_iff. apply qle_b_true. Qed.
Lemma qeq_b_true x y : qeq_b x y = true <-> x == y.
Proof. unfold qeq_b. apply Qeq_bool_iff. Qed.
Lemma qeq_b_false x y : qeq_b x y = false <-> ~ x == y.
Proof. unfold qeq_b. split; intro H.
  - intro E. apply Qeq_bool_iff in E. congruence.
  - apply not_true_is_false. intro E. apply Qeq_bool_iff in E. contradiction. Qed.

(* case split on a boolean comparison, turning it into an (in)equality hypothesis *)
Ltac qcase b H :=
  let E := fresh "E" in
  destruct b eqn:E;
  [ first [ apply qle_b_true in E | apply qlt_b_true in E | apply qeq_b_true in E ]
  | first [ apply qle_b_false in E | apply qlt_b_false in E | apply qeq_b_false in E ] ];
  rename E into H.

Lemma qmax_spec x y : (x <= y /\ qmax x y = y) \/ (y < x /\ qmax x y = x).
Proof. unfold qmax. qcase (qle_b x y) E; [left|right]; split; (assumption || reflexivity). Qed.
Lemma qmin_spec x y : (x <= y /\ qmin x y = x) \/ (y < x /\ qmin x y = y).
Proof. unfold qmin. qcase (qle_b x y) E; [left|right]; split; (assumption || reflexivity). Qed.

Lemma qmax_l x y : y <= x -> qmax x y == x.
Proof. destruct (qmax_spec x y) as [[? ->]|[? ->]]; lra. Qed.
Lemma qmax_r x y : x <= y -> qmax x y == y.
Proof. destruct (qmax_spec x y) as [[? ->]|[? ->]]; lra. Qed.
Lemma qmin_l x y : x <= y -> qmin x y == x.
Proof. destruct (qmin_spec x y) as [[? ->]|[? ->]]; lra. Qed.
Lemma qmin_r x y : y <= x -> qmin x y == y.
Proof. destruct (qmin_spec x y) as [[? ->]|[? ->]]; lra. Qed.
Lemma qmax_le_l x y : x <= qmax x y.
Proof. destruct (qmax_spec x y) as [[? ->]|[? ->]]; lra. Qed.
Lemma qmax_le_r x y : y <= qmax x y.
Proof. destruct (qmax_spec x y) as [[? ->]|[? ->]]; lra. Qed.
Lemma qmax_lub x y z : x <= z -> y <= z -> qmax x y <= z.
Proof. destruct (qmax_spec x y) as [[? ->]|[? ->]]; lra. Qed.
Lemma qmin_le_l x y : qmin x y <= x.
Proof. destruct (qmin_spec x y) as [[? ->]|[? ->]]; lra. Qed.
Lemma qmin_le_r x y : qmin x y <= y.
Proof. destruct (qmin_spec x y) as [[? ->]|[? ->]]; lra. Qed.
Lemma qmin_glb x y z : z <= x -> z <= y -> z <= qmin x y.
Proof. destruct (qmin_spec x y) as [[? ->]|[? ->]]; lra. Qed.
Lemma qmax_plus x y z : x + qmax y z == qmax (x + y) (x + z).
Proof. destruct (qmax_spec y z) as [[? ->]|[? ->]]; [rewrite qmax_r|rewrite qmax_l]; lra. Qed.

Lemma qmin_glb_lt x y z : z < x -> z < y -> z < qmin x y.
Proof. destruct (qmin_spec x y) as [[? ->]|[? ->]]; auto. Qed.
Lemma qmin_plus_qmax_sub x y : qmin x y + qmax (x - y) 0 == x.
Proof. destruct (Qlt_le_dec y x); [rewrite qmin_r, qmax_l by lra|rewrite qmin_l, qmax_r by lra]; ring. Qed.
Global Instance qmax_comp : Proper (Qeq ==> Qeq ==> Qeq) qmax.
Proof. intros a b H c d H'. destruct (Qlt_le_dec c a); [rewrite (qmax_l a c), (qmax_l b d) by lra|rewrite (qmax_r a c), (qmax_r b d) by lra]; assumption. Qed.
Global Instance qmin_comp : Proper (Qeq ==> Qeq ==> Qeq) qmin.
Proof. intros a b H c d H'. destruct (Qlt_le_dec c a); [rewrite (qmin_r a c), (qmin_r b d) by lra|rewrite (qmin_l a c), (qmin_l b d) by lra]; assumption. Qed.

Lemma qabs_nonneg x : 0 <= x -> qabs x == x.
Proof. intros H. unfold qabs. apply qle_b_true in H. rewrite H. reflexivity. Qed.
Lemma qabs_nonpos x : x <= 0 -> qabs x == - x.
Proof. intros H. unfold qabs. qcase (qle_b 0 x) E; [lra|apply qneg_ok]. Qed.

Lemma zq_pos z : (0 < z)%Z -> 0 < zq z.
Proof. intros H. unfold zq, inject_Z, Qlt. cbn. lia. Qed.
Lemma zq_nonneg z : (0 <= z)%Z -> 0 <= zq z.
Proof. intros H. unfold zq, inject_Z, Qle. cbn. lia. Qed.
Lemma zq_neq0 z : (z <> 0)%Z -> ~ zq z == 0.
Proof. intros H E. unfold zq, inject_Z, Qeq in E. cbn in E. lia. Qed.
Lemma zq_add a b : zq (a + b) == zq a + zq b. Proof. unfold zq. rewrite inject_Z_plus. reflexivity. Qed.
Lemma zq_sub a b : zq (a - b) == zq a - zq b.
Proof. unfold zq, Zminus. rewrite inject_Z_plus, inject_Z_opp. ring. Qed.
Lemma zq_mul a b : zq (a * b) == zq a * zq b. Proof. unfold zq. rewrite inject_Z_mult. reflexivity. Qed.
Lemma zq_le a b : (a <= b)%Z -> zq a <= zq b.
Proof. intros H. unfold zq. rewrite <- Zle_Qle. assumption. Qed.

Lemma qround_even_int x k : x == zq k -> qround_even x = k.
Proof. intros H. unfold qround_even.
  assert (Hf : Qfloor x = k) by (rewrite H; unfold zq; apply Qfloor_Z).
  rewrite Hf. assert (Hz : qsub x (zq k) == 0) by (qnorm; rewrite H; ring).
  assert (Hlt : qlt_b (qsub x (zq k)) (1 # 2) = true) by (apply qlt_b_true; rewrite Hz; reflexivity).
  rewrite Hlt. reflexivity. Qed.

Lemma floor_lots_le y lot : 0 < lot -> qmul (zq (Qfloor (qdiv y lot))) lot <= y.
Proof. intros Hl. rewrite qmul_ok. setoid_replace y with (qdiv y lot * lot) at 2 by (rewrite qdiv_ok; field; lra).
  apply Qmult_le_compat_r; [apply Qfloor_le|lra]. Qed.

Lemma qtrunc_floor x : 0 <= x -> qtrunc x = Qfloor x.
Proof. destruct x as [n d]. unfold Qle; cbn. rewrite Z.mul_1_r. intros H. apply Z.quot_div_nonneg; lia. Qed.
Lemma qtrunc_opp x : qtrunc (- x) = (- qtrunc x)%Z.
Proof. destruct x as [n d]. apply Z.quot_opp_l. discriminate. Qed.
Lemma qtrunc_nonneg x : 0 <= x -> 0 <= zq (qtrunc x) /\ zq (qtrunc x) <= x /\ x < zq (qtrunc x) + 1.
Proof. intros H. rewrite (qtrunc_floor x H). unfold zq. split; [apply zq_nonneg, (Qfloor_resp_le 0 x H)|]. split; [apply Qfloor_le|].
  rewrite <- (inject_Z_plus _ 1). apply Qlt_floor. Qed.
Lemma qtrunc_nonpos x : x <= 0 -> zq (qtrunc x) <= 0 /\ x <= zq (qtrunc x) /\ zq (qtrunc x) - 1 < x.
Proof. intros H. destruct (qtrunc_nonneg (- x)) as (A & B & C); [lra|]. rewrite qtrunc_opp in A, B, C. unfold zq in *. rewrite inject_Z_opp in A, B, C.
  repeat split; lra. Qed.
