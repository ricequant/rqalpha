From RQ Require Import Model.Num Model.Calendar Model.EventLoop Proofs.CalendarFacts.
From Coq Require Import Lia.
Open Scope Z_scope.

(* the executor's steps: the first event of a new day settles the previous one, the others are published as they come *)
Lemma exec_new_day prev acc d t : (match prev with Some l => l <> d | None => True end) ->
  exec_step (prev, acc) (SBeforeTrading d t) = (Some d, acc ++ (match prev with Some l => [PSettlement l] | None => [] end) ++ [PBeforeTrading d t]).
Proof. intros H. unfold exec_step; cbn [fst snd]. destruct prev as [l|]; [destruct (l =? d) eqn:E; [lia|]|]; reflexivity. Qed.
Lemma exec_same_day acc d t :
  exec_step (Some d, acc) (SOpenAuction d t) = (Some d, acc ++ [POpenAuction d t]) /\ exec_step (Some d, acc) (SBar d t) = (Some d, acc ++ [PBar d t]).
Proof. unfold exec_step; cbn [fst snd]. rewrite Z.eqb_refl. split; reflexivity. Qed.

(* one trading day of daily events through the executor *)
Lemma exec_daily_day prev acc d : (match prev with Some l => l <> d | None => True end) ->
  fold_left exec_step (daily_day d) (prev, acc) =
  (Some d, acc ++ (match prev with Some l => [PSettlement l] | None => [] end) ++ [PBeforeTrading d 0; POpenAuction d 0; PBar d 900; PAfterTrading d 930]).
Proof. intros H. unfold daily_day. cbn [fold_left]. rewrite (exec_new_day _ _ _ _ H), (proj1 (exec_same_day _ _ _)), (proj2 (exec_same_day _ _ _)).
  cbn [exec_step fst snd]. rewrite <- !app_assoc. reflexivity. Qed.

(* the executor's state after the daily events of `days`: the last day is pending, and with its settlement the output is what is prescribed *)
Lemma exec_daily days : forall prev acc, sinc days -> (match prev, days with Some l, d :: _ => l < d | _, _ => True end) ->
  let r := fold_left exec_step (daily_events days) (prev, acc) in
  fst r = match days with [] => prev | _ => Some (lastz days) end /\
  snd r ++ (match fst r with Some l => [PSettlement l] | None => [] end) = acc ++ spec_days prev days.
Proof.
  induction days as [|d t IH]; intros prev acc Hs Hp; [split; reflexivity|].
  cbn [daily_events flat_map spec_days]. rewrite fold_left_app, exec_daily_day by (destruct prev; lia). fold (daily_events t).
  edestruct (IH (Some d)) as [A B]; [apply (sinc_tail _ _ Hs) | destruct t; [exact I | apply (sinc_lb _ _ Hs), in_eq] |].
  cbv zeta. rewrite B, A, <- !app_assoc. split; [destruct t|]; reflexivity.
Qed.

Fixpoint count_settle (l : list pev) : nat := match l with [] => O | PSettlement _ :: t => S (count_settle t) | _ :: t => count_settle t end.
Lemma count_settle_app a b : count_settle (a ++ b) = (count_settle a + count_settle b)%nat.
Proof. induction a as [|x t IH]; cbn; [reflexivity|]. destruct x; cbn; rewrite IH; reflexivity. Qed.
Lemma spec_settlements days : forall prev, count_settle (spec_days prev days) = (length days + match prev with Some _ => 1 | None => 0 end)%nat.
Proof. induction days as [|d t IH]; intros prev; cbn [spec_days length]; [destruct prev; reflexivity|].
  rewrite count_settle_app. cbn [app count_settle]. rewrite IH. destruct prev; cbn; lia. Qed.

(* the shape: every day contributes BT, OA, BAR, AT in this order, preceded (except the first) by the settlement of the previous day *)
Theorem spec_shape d t prev : spec_days prev (d :: t) =
  (match prev with Some l => [PSettlement l] | None => [] end) ++ [PBeforeTrading d 0; POpenAuction d 0; PBar d 900; PAfterTrading d 930] ++ spec_days (Some d) t.
Proof. reflexivity. Qed.

(* clocks never move backwards *)
Definition le_time (a b : Z * Z) : Prop := fst a < fst b \/ (fst a = fst b /\ snd a <= snd b).
Fixpoint times (l : list pev) : list (Z * Z) := match l with [] => [] | e :: t => match pev_time e with Some x => x :: times t | None => times t end end.
Fixpoint mono (lo : Z * Z) (l : list (Z * Z)) : Prop := match l with [] => True | x :: t => le_time lo x /\ mono x t end.
Lemma times_app a b : times (a ++ b) = times a ++ times b.
Proof. induction a as [|x t IH]; cbn; [reflexivity|]. destruct (pev_time x); cbn; rewrite IH; reflexivity. Qed.

(* minute frequency: whatever universe changes happen, the bars of a day are strictly increasing *)
Fixpoint bars_of (l : list sev) : list Z := match l with [] => [] | SBar _ t :: r => t :: bars_of r | _ :: r => bars_of r end.
Fixpoint incr_from (lo : option Z) (l : list Z) : Prop :=
  match l with [] => True | x :: t => (match lo with Some v => v < x | None => True end) /\ incr_from (Some x) t end.
Lemma bars_of_app a b : bars_of (a ++ b) = bars_of a ++ bars_of b.
Proof. induction a as [|x t IH]; cbn; [reflexivity|]. destruct x; cbn; rewrite IH; reflexivity. Qed.
Definition ge_last (last : option Z) (x : Z) : Prop := match last with Some l => l <= x | None => True end.
Lemma bars_of_pre d m (b : bool) : bars_of (if b then [SBeforeTrading d (m - 30); SOpenAuction d (m - 3)] else []) = [].
Proof. destruct b; reflexivity. Qed.

(* one evaluation of the universe: the bars, followed by the minute at which the loop broke off if it did, are minutes of the list in
   their order, none earlier than the minute already reached *)
Lemma scan_bars d changed mins : sinc mins -> forall last btflag,
  let r := scan d changed last btflag mins in
  let l := bars_of (fst (fst r)) ++ match snd (fst r) with Some m => [m] | None => [] end in
  sinc l /\ forall x, In x l -> ge_last last x /\ In x mins.
Proof.
  induction mins as [|m t IH]; intros Hs last btflag; cbn [scan]; [split; [constructor | intros x []]|].
  pose proof (IH (sinc_tail _ _ Hs) last) as IHt. cbv zeta in IHt.
  destruct (match last with Some l => m <? l | None => false end) eqn:Skip; cbv zeta.
  - destruct (IHt btflag) as [A B]. split; [exact A|]. intros x Hx. destruct (B x Hx). auto using in_cons.
  - assert (Hm : ge_last last m /\ In m (m :: t)) by (split; [destruct last; [apply Z.ltb_ge, Skip | exact I] | apply in_eq]).
    destruct (changed m); cbn [fst snd].
    + rewrite bars_of_pre. split; [constructor|]. intros x [<-|[]]. exact Hm.
    + destruct (IHt false) as [A B]. rewrite bars_of_app, bars_of_pre. cbn [app bars_of]. split.
      * apply sinc_cons. split; [|exact A]. intros y Hy. apply (sinc_lb m t Hs), B, Hy.
      * intros x [<-|Hx]; [exact Hm | destruct (B x Hx); auto using in_cons].
Qed.
