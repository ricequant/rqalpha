From RQ Require Import Model.Num Model.Calendar Proofs.NumFacts.
From Coq Require Import Lia ZifyBool.
Open Scope Z_scope.

Inductive sinc : list Z -> Prop := s0 : sinc [] | s1 x : sinc [x] | s2 x y t : x < y -> sinc (y :: t) -> sinc (x :: y :: t).
Lemma sinc_tail x t : sinc (x :: t) -> sinc t.
Proof. intros H. inversion H; subst; [constructor|assumption]. Qed.
Lemma sinc_lb x t : sinc (x :: t) -> forall y, In y t -> x < y.
Proof. revert x. induction t as [|z t IH]; intros x H y Hy; [destruct Hy|]. inversion H as [| |? ? ? Hxz Hz]; subst.
  destruct Hy as [->|Hy]; [assumption|]. specialize (IH z Hz y Hy). lia. Qed.
Lemma sinc_cons x t : sinc (x :: t) <-> (forall y, In y t -> x < y) /\ sinc t.
Proof. split; [intros H; split; [apply sinc_lb, H | apply (sinc_tail _ _ H)] | intros [A B]; destruct t; constructor; [apply A, in_eq | exact B]]. Qed.
Lemma sinc_app a b : sinc (a ++ b) <-> sinc a /\ sinc b /\ forall x y, In x a -> In y b -> x < y.
Proof.
  induction a as [|x t IH]; cbn [app].
  - split; [intros H; repeat split; [constructor | exact H | intros x y []] | tauto].
  - rewrite !sinc_cons, IH. split.
    + intros (H & A & B & C). repeat split; [intros y Hy; apply H, in_or_app; auto | exact A | exact B |].
      intros p q [<-|Hp] Hq; [apply H, in_or_app; auto | apply C; assumption].
    + intros ((H & A) & B & C). repeat split; [| exact A | exact B | intros p q Hp Hq; apply C; [right; exact Hp | exact Hq]].
      intros y Hy. apply in_app_or in Hy as [Hy|Hy]; [apply H, Hy | apply C; [left; reflexivity | exact Hy]].
Qed.

(* searchsorted at the k-th date itself: k from the left, k + 1 from the right *)
Lemma cnt_nth l : sinc l -> forall k, (k < length l)%nat -> cnt_ltn (nth k l 0) l = k /\ cnt_len (nth k l 0) l = S k.
Proof. induction l as [|x t IH]; intros H k Hk; cbn in *; [lia|]. destruct k as [|k].
  - rewrite Z.ltb_irrefl, Z.leb_refl. split; [reflexivity|]. f_equal. destruct t as [|y t]; [reflexivity|]. cbn.
    pose proof (sinc_lb x _ H y (in_eq _ _)). replace (y <=? x) with false by lia. reflexivity.
  - assert (Hx : x < nth k t 0) by (apply (sinc_lb x t H), nth_In; lia).
    replace (x <? nth k t 0) with true by lia. replace (x <=? nth k t 0) with true by lia.
    destruct (IH (sinc_tail _ _ H) k) as [-> ->]; [lia|]. split; reflexivity. Qed.
Lemma cnt_len_le_len x l : (cnt_len x l <= length l)%nat.
Proof. induction l as [|y t IH]; cbn; [lia|]. destruct (y <=? x); lia. Qed.

(* the previous trading date of the k-th day is the (k-1)-th, the next one the (k+1)-th *)
Lemma prev_at l k : sinc l -> (0 < k < length l)%nat -> prev_trading_date l (nth k l 0) 1 = nth (k - 1) l 0.
Proof. intros H Hk. unfold prev_trading_date, cnt_lt, nthz. rewrite (proj1 (cnt_nth l H k ltac:(lia))).
  destruct (1 <=? Z.of_nat k) eqn:E; [|lia]. f_equal. lia. Qed.
Lemma next_at l k : sinc l -> (S k < length l)%nat -> next_trading_date l (nth k l 0) 1 = nth (S k) l 0.
Proof. intros H Hk. unfold next_trading_date, cnt_le, lenz, nthz. rewrite (proj2 (cnt_nth l H k ltac:(lia))).
  destruct (Z.of_nat (length l) <? Z.of_nat (S k) + 1) eqn:E; [lia|]. f_equal. lia. Qed.

Lemma Forall_skipn {A} (P : A -> Prop) n l : Forall P l -> Forall P (skipn n l).
Proof. intros H. rewrite <- (firstn_skipn n l) in H. apply Forall_app in H. apply H. Qed.
Lemma filter_all {A} (f : A -> bool) l : Forall (fun x => f x = true) l -> filter f l = l.
Proof. induction 1 as [|x t Hx _ IH]; cbn; [|rewrite Hx, IH]; reflexivity. Qed.
Lemma filter_none {A} (f : A -> bool) l : Forall (fun x => f x = false) l -> filter f l = [].
Proof. induction 1 as [|x t Hx _ IH]; cbn; [|rewrite Hx]; auto. Qed.
Lemma filter_filter {A} (f g : A -> bool) l : filter f (filter g l) = filter (fun x => g x && f x) l.
Proof. induction l as [|x t IH]; cbn; [reflexivity|]. destruct (g x); cbn; [destruct (f x); cbn; rewrite IH; reflexivity|assumption]. Qed.

(* searchsorted on a strictly increasing list cuts it where the threshold predicate changes: the dates from a on are what is left after
   the first cnt_ltn a of them; the dates up to b are the first cnt_len b - and the same behind any k dates already skipped (with
   k := cnt_ltn a this is the slice get_trading_dates takes; the subtraction is truncated, an empty slice is an empty filter) *)
Lemma skipn_cnt_lt a l : sinc l -> skipn (cnt_ltn a l) l = filter (fun x => a <=? x) l.
Proof. induction l as [|y t IH]; intros H; cbn; [reflexivity|]. destruct (y <? a) eqn:E.
  - replace (a <=? y) with false by lia. apply IH, (sinc_tail _ _ H).
  - replace (a <=? y) with true by lia. cbn. rewrite filter_all; [reflexivity|].
    apply Forall_forall. intros z Hz. pose proof (sinc_lb y t H z Hz). lia. Qed.
Lemma firstn_cnt_le b l : sinc l -> forall k, firstn (cnt_len b l - k) (skipn k l) = filter (fun x => x <=? b) (skipn k l).
Proof. induction l as [|y t IH]; intros H k; [rewrite skipn_nil, firstn_nil; reflexivity|]. cbn [cnt_len]. destruct (y <=? b) eqn:E.
  - destruct k as [|k]; [|apply IH, (sinc_tail _ _ H)]. cbn. rewrite E. f_equal.
    rewrite <- (Nat.sub_0_r (cnt_len b t)). apply (IH (sinc_tail _ _ H) O).
  - symmetry. apply filter_none, Forall_skipn, Forall_forall. intros z [<-|Hz]; [assumption|]. pose proof (sinc_lb y t H z Hz). lia. Qed.

(* get_trading_dates is the sorted calendar slice between its bounds *)
Theorem trading_dates_is_slice l a b : sinc l -> trading_dates l a b = filter (fun x => (a <=? x) && (x <=? b)) l.
Proof. intros H. unfold trading_dates, slicez, cnt_lt, cnt_le. rewrite Z2Nat.inj_sub, !Nat2Z.id by apply Nat2Z.is_nonneg.
  rewrite (firstn_cnt_le b l H), (skipn_cnt_lt a l H). apply filter_filter. Qed.

Lemma slicez_spec {A} (l : list A) a b : 0 <= a -> slicez a b l = skipn (Z.to_nat a) (firstn (Z.to_nat b) l).
Proof. intros H. unfold slicez. rewrite skipn_firstn_comm. f_equal. lia. Qed.
(* the window is the last bar_count bars among those dated <= dt *)
Lemma window_slice (bars : list hbar) dt n : 0 <= n ->
  slicez (fst (window_bounds (map h_dt bars) dt n)) (snd (window_bounds (map h_dt bars) dt n)) bars =
  skipn (cnt_len dt (map h_dt bars) - Z.to_nat n) (firstn (cnt_len dt (map h_dt bars)) bars).
Proof. intros Hn. unfold window_bounds, cnt_le. cbn [fst snd]. rewrite slicez_spec, Nat2Z.id by (destruct (n <=? _) eqn:C; lia).
  f_equal. destruct (n <=? _) eqn:C; lia. Qed.
Lemma firstn_cnt_len_le dt (bs : list hbar) : Forall (fun b => h_dt b <= dt) (firstn (cnt_len dt (map h_dt bs)) bs).
Proof. induction bs as [|b bs IH]; cbn [map cnt_len firstn]; [constructor|].
  destruct (h_dt b <=? dt) eqn:E; cbn [firstn]; constructor; [lia | exact IH]. Qed.

Open Scope Q_scope.
Definition adj_base (table : list (Z * Q)) (adj : adjust_type) (orig : Z) : Q := match adj with AdjPre => factor_for table orig | _ => 1 end.
Definition adj_rel (table : list (Z * Q)) (base : Q) (b b' : hbar) : Prop :=
  h_dt b' = h_dt b /\ h_price b' == h_price b * (factor_for table (h_dt b) / base) /\
  h_volume b' == h_volume b * (base / factor_for table (h_dt b)).
Lemma adjust_same table base bars : ~ base == 0 ->
  (forall b, In b bars -> qeq_b (factor_for table (h_dt b)) base = true) -> Forall2 (adj_rel table base) bars bars.
Proof. intros Hb. induction bars as [|b t IH]; intros A; constructor.
  - pose proof (A b (or_introl eq_refl)) as E. apply qeq_b_true in E. unfold adj_rel. split; [reflexivity|]. rewrite E. split; field; assumption.
  - apply IH. intros x Hx. apply A. right. assumption. Qed.
(* no side condition: 1 / (F / base) == base / F also when a denominator is 0 *)
Lemma adjust_map table base bars :
  Forall2 (adj_rel table base) bars
    (map (fun b => {| h_dt := h_dt b; h_price := qmul (h_price b) (qdiv (factor_for table (h_dt b)) base);
                      h_volume := qmul (h_volume b) (qdiv 1 (qdiv (factor_for table (h_dt b)) base)) |}) bars).
Proof. induction bars as [|b t IH]; cbn [map]; constructor; [|assumption].
  unfold adj_rel. cbn [h_dt h_price h_volume]. rewrite !qmul_ok, !qdiv_ok. split; [reflexivity|]. split; [reflexivity|].
  unfold Qdiv. rewrite Qinv_mult_distr, Qinv_involutive. ring. Qed.
Theorem adjust_skips_futures_and_indexes bars table adj orig : adjust_window bars table adj true orig = bars.
Proof. destruct adj; reflexivity. Qed.
