From RQ Require Import Model.Num Model.Closable Proofs.NumFacts.
From Coq Require Import Lqa.
Open Scope Q_scope.

Definition cwf_order (o : corder) := 0 < co_unfilled o.
(* the invariant: quantities are non-negative and every resting close is covered *)
Definition CInv (g : ccfg) (s : cstate) : Prop :=
  0 <= cs_old s /\ cs_old s <= cs_qty s /\ 0 <= cs_nc s /\
  sum_unfilled false (cs_book s) + (if cc_stock g && cc_t1 g then cs_nc s else 0) <= cs_qty s /\      (* closable >= 0 *)
  sum_unfilled true (cs_book s) <= cs_qty s - cs_old s /\                                             (* today_closable >= 0 *)
  Forall cwf_order (cs_book s) /\
  (cc_stock g = true -> sum_unfilled true (cs_book s) == 0).                                          (* stocks never close today *)
Definition cwf_ev (g : ccfg) (s : cstate) (e : cev) : Prop :=
  match e with
  | COpenFill q => 0 < q
  | CSubmit id today q => 0 < q /\ cfind id (cs_book s) = None /\ (cc_stock g = true -> today = false)
  | CFill id q => forall o, cfind id (cs_book s) = Some o -> 0 < q /\ q <= co_unfilled o
  | CDrop id => True
  | CNewDay => cs_book s = [] /\ (cc_t1 g = true -> cc_tplus g = true -> True)
  end.

Lemma sum_unfilled_app b l1 l2 : sum_unfilled b (l1 ++ l2) == sum_unfilled b l1 + sum_unfilled b l2.
Proof. induction l1 as [|o t IH]; cbn; [ring|rewrite IH; ring]. Qed.
Definition contrib (b : bool) (o : corder) : Q := if b && negb (co_today o) then 0 else co_unfilled o.
Lemma sum_unfilled_remove b id l o : cfind id l = Some o -> sum_unfilled b (cremove id l) == sum_unfilled b l - contrib b o.
Proof. induction l as [|x t IH]; cbn; [discriminate|]. destruct (Nat.eqb (co_id x) id).
  - intros [= ->]. unfold contrib. ring. - intros H. cbn. rewrite IH by assumption. ring. Qed.
Lemma sum_unfilled_replace b o' l o : cfind (co_id o') l = Some o ->
  sum_unfilled b (creplace o' l) == sum_unfilled b l - contrib b o + contrib b o'.
Proof. induction l as [|x t IH]; cbn; [discriminate|]. destruct (Nat.eqb (co_id x) (co_id o')).
  - intros [= ->]. cbn. unfold contrib. ring. - intros H. cbn. rewrite IH by assumption. ring. Qed.
Lemma cfind_id id l o : cfind id l = Some o -> co_id o = id.
Proof. induction l as [|x t IH]; cbn; [discriminate|]. destruct (Nat.eqb_spec (co_id x) id) as [E|E]; [intros [= ->]; exact E|assumption]. Qed.
Lemma Forall_cremove id l : Forall cwf_order l -> Forall cwf_order (cremove id l).
Proof. induction l as [|x t IH]; cbn; [auto|]. intros F; inversion F; subst. destruct (Nat.eqb (co_id x) id); [assumption|constructor; auto]. Qed.
Lemma Forall_creplace o' l : cwf_order o' -> Forall cwf_order l -> Forall cwf_order (creplace o' l).
Proof. intros W. induction l as [|x t IH]; cbn; [auto|]. intros F; inversion F; subst. destruct (Nat.eqb (co_id x) (co_id o')); constructor; auto. Qed.
Lemma sum_today_le_all l : Forall cwf_order l -> 0 <= sum_unfilled true l /\ sum_unfilled true l <= sum_unfilled false l.
Proof. induction 1 as [|x t Hx Ht IH]; cbn; [lra|]. unfold cwf_order in Hx. destruct (co_today x); cbn; lra. Qed.
Lemma sum_unfilled_remove_le b id l : Forall cwf_order l -> sum_unfilled b (cremove id l) <= sum_unfilled b l.
Proof. induction 1 as [|x t Hx Ht IH]; cbn; [lra|]. unfold cwf_order in Hx.
  destruct (Nat.eqb (co_id x) id); cbn; destruct (b && negb (co_today x)); lra. Qed.
(* the book after a fill of q on resting close o: both sums move by q (the today sum only for a close-today order) *)
Lemma fill_book id l o q : Forall cwf_order l -> cfind id l = Some o -> q <= co_unfilled o ->
  let l' := if qeq_b (co_unfilled o) q then cremove id l
            else creplace {| co_id := co_id o; co_today := co_today o; co_unfilled := co_unfilled o - q |} l in
  sum_unfilled false l' == sum_unfilled false l - q /\
  sum_unfilled true l' == sum_unfilled true l - (if co_today o then q else 0) /\ Forall cwf_order l'.
Proof. intros Hw F Hle. cbv zeta. qcase (qeq_b (co_unfilled o) q) E.
  - rewrite !(sum_unfilled_remove _ id _ o F). unfold contrib. split; [|split; [|apply Forall_cremove; exact Hw]]; destruct (co_today o); cbn; lra.
  - set (o' := {| co_id := co_id o; co_today := co_today o; co_unfilled := co_unfilled o - q |}).
    rewrite <- (cfind_id _ _ _ F) in F. rewrite !(sum_unfilled_replace _ o' _ o F). unfold contrib, o'.
    split; [|split; [|apply Forall_creplace; [unfold cwf_order; cbn; lra|exact Hw]]]; destruct (co_today o); cbn; ring. Qed.

Lemma closable_eq g s : closable g s == cs_qty s - sum_unfilled false (cs_book s) - (if cc_stock g && cc_t1 g then cs_nc s else 0).
Proof. unfold closable. destruct (cc_stock g && cc_t1 g); ring. Qed.
Lemma validate_close_true g s today q : validate_close g s today q = true -> q <= closable g s /\ (today = true -> q <= today_closable s).
Proof. unfold validate_close. destruct today; intros V; apply qle_b_true in V; [|split; [exact V|discriminate]].
  split; [|intros _]; (eapply Qle_trans; [exact V|]); [apply qmin_le_r|apply qmin_le_l]. Qed.

Theorem cstep_inv g s e : CInv g s -> cwf_ev g s e -> CInv g (cstep g s e).
Proof.
  intros (Ho & Hoq & Hnc & Hc & Ht & Hw & Hs) He.
  assert (K : 0 <= if cc_stock g && cc_t1 g then cs_nc s else 0) by (destruct (cc_stock g && cc_t1 g); lra).
  destruct e as [q|id today q|id q|id|]; cbn [cstep cwf_ev] in *; unfold CInv.
  - (* open fill: of what is bought, at most all becomes non-closable (with T+1 switched on for an instrument without T+1, nothing) *)
    cbn [cs_qty cs_old cs_nc cs_book].
    assert (Hn : 0 <= (if cc_stock g && cc_tplus g then cs_nc s + q else cs_nc s) <= cs_nc s + q) by (destruct (cc_stock g && cc_tplus g); lra).
    repeat split; try lra; try assumption. destruct (cc_stock g && cc_t1 g); lra.
  - (* submission: an accepted close is within both closable quantities *)
    destruct He as (Hq & _ & Hst). destruct (validate_close g s today q) eqn:V; [|repeat split; assumption].
    apply validate_close_true in V. destruct V as [Hqa Hqt]. rewrite closable_eq in Hqa. unfold today_closable in Hqt.
    cbn [cs_qty cs_old cs_nc cs_book]. rewrite !sum_unfilled_app. cbn [sum_unfilled co_today co_unfilled andb].
    repeat split; try lra; try assumption.
    + destruct today; cbn [negb]; [specialize (Hqt eq_refl)|]; lra.
    + apply Forall_app. split; [assumption|repeat constructor; assumption].
    + intros S. rewrite (Hst S), (Hs S). cbn [negb]. ring.
  - (* a fill of a resting close.  What is left of the book is well formed, so its today sum is non-negative and at most its sum of all closes:
       that bounds a close-today fill by the old today sum, and leaves an ordinary fill room beside the close-today orders *)
    destruct (cfind id (cs_book s)) as [o|] eqn:F; [|repeat split; assumption]. destruct (He o eq_refl) as [Hq Hqu].
    destruct (fill_book id _ o q Hw F Hqu) as (A' & T' & W'). pose proof (sum_today_le_all _ W') as [T0' TA'].
    revert T'. destruct (co_today o); cbn [cs_qty cs_old cs_nc cs_book]; intros T'.
    + (* close today: taken from today's quantity *)
      repeat split; try lra; try assumption. intros S. specialize (Hs S). lra.
    + (* ordinary close: yesterday's quantity first *)
      destruct (qmin_spec q (cs_old s)) as [[? ->]|[? ->]]; (repeat split; try lra; try assumption; intros S; specialize (Hs S); lra).
  - (* drop *) cbn [cs_qty cs_old cs_nc cs_book].
    pose proof (sum_unfilled_remove_le false id _ Hw). pose proof (sum_unfilled_remove_le true id _ Hw).
    pose proof (Forall_cremove id _ Hw) as W'. pose proof (sum_today_le_all _ W') as [T0' _].
    repeat split; try lra; try assumption. intros S. specialize (Hs S). lra.
  - (* new day *) destruct He as [Hb _]. cbn [cs_qty cs_old cs_nc cs_book]. rewrite Hb in *. cbn [sum_unfilled] in *.
    repeat split; try lra; try constructor. destruct (cc_stock g && cc_t1 g); lra.
Qed.

Fixpoint cwf_run g (s : cstate) (evs : list cev) : Prop :=
  match evs with [] => True | e :: t => cwf_ev g s e /\ cwf_run g (cstep g s e) t end.
