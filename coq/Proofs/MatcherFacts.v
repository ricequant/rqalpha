From RQ Require Import Model.Num Model.Position Model.Matcher Proofs.NumFacts.
From Coq Require Import Lqa.
Open Scope Q_scope.

Lemma valid_price_some p x : valid_price p = Some x -> p = Some x /\ 0 < x.
Proof. unfold valid_price. destruct p as [y|]; [|discriminate]. destruct (qlt_b 0 y) eqn:E; [|discriminate].
  intros [= ->]. split; [reflexivity|apply qlt_b_true; assumption]. Qed.

Definition band_ok (pb : mbar) (deal : Q) : Prop :=
  (forall lu, valid_price (b_limit_up pb) = Some lu -> deal <= lu) /\
  (forall ld, valid_price (b_limit_down pb) = Some ld -> ld <= deal) /\
  (forall lu ld, valid_price (b_limit_up pb) = Some lu -> valid_price (b_limit_down pb) = Some ld -> ld <= lu).

Lemma clamp_ge x z pb : z <= x -> (forall lu, valid_price (b_limit_up pb) = Some lu -> z <= lu) -> z <= clamp x pb.
Proof. intros L Hu. unfold clamp. destruct (valid_price (b_limit_down pb)); [eapply Qle_trans; [|apply qmax_le_l]|];
  (destruct (valid_price (b_limit_up pb)); [apply qmin_glb|]); auto. Qed.
Lemma clamp_le x z pb : x <= z -> (forall ld, valid_price (b_limit_down pb) = Some ld -> ld <= z) -> clamp x pb <= z.
Proof. intros L Hd. unfold clamp. destruct (valid_price (b_limit_down pb)); [apply qmax_lub; [|auto]|];
  (destruct (valid_price (b_limit_up pb)); [eapply Qle_trans; [apply qmin_le_l|]|]); assumption. Qed.
Lemma clamp_id x pb' : band_ok pb' x -> clamp x pb' == x.
Proof. intros (Hu & Hd & _). apply Qle_antisym; [apply clamp_le|apply clamp_ge]; auto using Qle_refl. Qed.
Lemma clamp_in_band x pb lu ld : valid_price (b_limit_up pb) = Some lu -> valid_price (b_limit_down pb) = Some ld -> ld <= lu ->
  ld <= clamp x pb <= lu.
Proof. intros U D L. unfold clamp. rewrite U, D. split; [apply qmax_le_r|apply qmax_lub; [apply qmin_le_r|exact L]]. Qed.
Global Instance clamp_comp : Proper (Qeq ==> eq ==> Qeq) clamp.
Proof. intros x y E pb ? <-. unfold clamp. destruct (valid_price (b_limit_up pb)), (valid_price (b_limit_down pb)); rewrite E; reflexivity. Qed.

(* the PriceRatio and TickSize models differ in X only: the price moves by X * rate, against the order, and is clamped *)
Lemma offset_adverse pb deal X r s : 0 <= X -> 0 <= r -> band_ok pb deal ->
  let p := clamp (qadd deal (qmul (qmul X r) (match s with Buy => 1 | Sell => -1 end))) pb in
  match s with Buy => deal <= p | Sell => p <= deal end.
Proof. intros HX Hr (Hu & Hd & _). pose proof (Qmult_le_0_compat _ _ HX Hr).
  destruct s; [apply clamp_ge|apply clamp_le]; auto; rewrite qadd_ok, !qmul_ok; lra. Qed.
Lemma offset_zero pb deal X r s : r == 0 -> band_ok pb deal -> clamp (qadd deal (qmul (qmul X r) s)) pb == deal.
Proof. intros Z B. rewrite <- (clamp_id deal pb B) at 2. apply clamp_comp; [rewrite qadd_ok, !qmul_ok, Z; ring|reflexivity]. Qed.

(* slippage moves the price only against the order (given a reference inside the band and a non-negative rate) *)
Lemma slip_adverse g i pb o deal : 0 <= m_slip_rate g -> 0 <= i_tick i -> 0 < deal -> band_ok pb deal ->
  (mo_limit o = true -> match mo_side o with Buy => deal <= mo_price o | Sell => mo_price o <= deal end) ->
  match mo_side o with Buy => deal <= slip_price g i pb o deal | Sell => slip_price g i pb o deal <= deal end.
Proof. intros Hr Ht Hd Hb Hl. unfold slip_price. destruct (m_slip g); [apply offset_adverse; auto; lra..|].
  destruct (mo_limit o); [apply Hl; reflexivity|destruct (mo_side o); apply Qle_refl]. Qed.

(* rewrite with this where the allowance has to be spelled out (C06_total_per_bar_whole_lots).  `unfold lot_cap in H`, or leaving the
   conversion to `exact`, type-checks at once but doubles what Qed and coqchk have to do for that file: the kernel, asked to convert the
   folded form into the spelled-out one, normalises qmul before it unfolds lot_cap *)
Lemma lot_cap_eq g i v : lot_cap g i v = qmul (zq (Qfloor (qdiv (zq (qround_even (qmul v (m_volume_percent g)))) (i_lot i)))) (i_lot i).
Proof. unfold lot_cap. reflexivity. Qed.
Lemma lot_cap_le g i v : 0 < i_lot i -> lot_cap g i v <= zq (qround_even (qmul v (m_volume_percent g))).
Proof. apply floor_lots_le. Qed.
(* what a call may still trade keeps the bar inside its allowance in whole lots *)
Lemma volume_cap_bound_lots g i v turnover : 0 < i_lot i -> volume_cap g i v turnover <= lot_cap g i v - turnover.
Proof. rewrite <- qsub_ok. apply floor_lots_le. Qed.
Lemma volume_cap_lots g i v turnover : exists k : Z, volume_cap g i v turnover == zq k * i_lot i.
Proof. unfold volume_cap. eexists. apply qmul_ok. Qed.

Lemma gate_off (pl x : bool) (n : nat) : (if pl && x then n else O) <> n -> pl = true -> x = false.
Proof. intros H ->. destruct x; [contradiction|reflexivity]. Qed.
Lemma price_gate_go g pb o deal : (price_gate g pb o deal <> 1 /\ price_gate g pb o deal <> 2 /\ price_gate g pb o deal <> 3)%nat ->
  (mo_limit o = true -> match mo_side o with Buy => deal <= mo_price o | Sell => mo_price o <= deal end) /\
  (m_price_limit g = true -> match mo_side o with Buy => ge_opt deal (b_limit_up pb) = false | Sell => le_opt deal (b_limit_down pb) = false end).
Proof. unfold price_gate. intros (H1 & H2 & H3). destruct (mo_limit o), (mo_side o).
  - qcase (qlt_b (mo_price o) deal) A; [congruence|]. split; [intros _; exact A|apply (gate_off _ _ 1), H1].
  - qcase (qlt_b deal (mo_price o)) A; [congruence|]. split; [intros _; exact A|apply (gate_off _ _ 1), H1].
  - split; [discriminate|apply (gate_off _ _ 2), H2].
  - split; [discriminate|apply (gate_off _ _ 3), H3].
Qed.

Section Match.
  Variables (g : mcfg) (i : mins) (bar auction_bar pb : mbar) (auction : bool) (turnover : Q) (o : morder)
            (fee_of : Q -> Q -> Q -> Q) (occupation : Q -> Q) (avail : Q) (ct_of : Q -> Q).
  Notation M := (match_one g i bar auction_bar pb auction turnover o fee_of occupation avail ct_of).
  Notation vol := (if auction then b_volume auction_bar else b_volume bar).
  Notation unfilled := (qsub (mo_qty o) (mo_filled o)).

  Lemma filled_inv price qty ct rc : M = Filled price qty ct rc ->
    exists deal, valid_price (deal_price g i bar auction_bar auction) = Some deal /\
      price = (if auction then deal else slip_price g i pb o deal) /\
      (price_gate g pb o deal <> 1 /\ price_gate g pb o deal <> 2 /\ price_gate g pb o deal <> 3)%nat /\
      inactive g vol = false /\
      fill_amount g i vol turnover unfilled = Some qty /\
      ct = ct_of qty /\
      rc = (negb (mo_limit o) && negb (qeq_b (qsub unfilled qty) 0)).
  Proof.
    unfold match_one. destruct (valid_price (deal_price g i bar auction_bar auction)) as [deal|]; [|destruct (i_listed_today i); discriminate].
    intros H. exists deal. split; [reflexivity|].
    (* the gate lets the order go on at 0 and above 3 *)
    destruct (price_gate g pb o deal) as [|[|[|[|n]]]]; try discriminate H.
    all: destruct (inactive g vol); [discriminate H|].
    all: destruct (fill_amount g i vol turnover unfilled) as [f|]; [|destruct (mo_limit o); discriminate H].
    all: destruct (_ && _ && _) in H; [discriminate H|].
    all: injection H as <- <- <- <-; repeat split; discriminate.
  Qed.
  (* the price side of a fill, for THE reference price of the call *)
  Lemma filled_price price qty ct rc deal : M = Filled price qty ct rc ->
    valid_price (deal_price g i bar auction_bar auction) = Some deal ->
    price = (if auction then deal else slip_price g i pb o deal) /\
    (mo_limit o = true -> match mo_side o with Buy => deal <= mo_price o | Sell => mo_price o <= deal end) /\
    (m_price_limit g = true -> match mo_side o with Buy => ge_opt deal (b_limit_up pb) = false | Sell => le_opt deal (b_limit_down pb) = false end).
  Proof. intros H V. destruct (filled_inv _ _ _ _ H) as (d & V' & P & G & _). rewrite V in V'. injection V' as <-.
    split; [exact P|apply price_gate_go, G]. Qed.

  (* the quantity of a fill: positive, at most the remainder, whole lots or the whole remainder, and inside the bar's allowance
     rounded down to whole lots, also when an odd-lot liquidation made the turnover odd *)
  Theorem fill_quantity_shape price qty ct rc : M = Filled price qty ct rc -> 0 < unfilled -> 0 < i_lot i ->
    0 < qty /\ qty <= unfilled /\ (qty == unfilled \/ exists k : Z, qty == zq k * i_lot i) /\
    (m_volume_limit g = true -> forall v, vol = Some v -> turnover + qty <= lot_cap g i v).
  Proof. intros H Hu Hl. destruct (filled_inv _ _ _ _ H) as (_ & _ & _ & _ & _ & F & _). unfold fill_amount in F.
    (* without a cap that applies the fill is the whole remainder *)
    destruct (m_volume_limit g); [destruct vol as [v|]|];
      [|injection F as <-; (split; [lra|]; split; [lra|]; split; [left; reflexivity|intros; discriminate])..].
    qcase (qle_b (volume_cap g i v turnover) 0) C; [discriminate|]. injection F as <-.
    split; [apply qmin_glb_lt; assumption|]. split; [apply qmin_le_l|]. split.
    - destruct (qmin_spec unfilled (volume_cap g i v turnover)) as [[_ ->]|[_ ->]]; [left; reflexivity|right; apply volume_cap_lots].
    - intros _ v' [= <-]. pose proof (qmin_le_r unfilled (volume_cap g i v turnover)). pose proof (volume_cap_bound_lots g i v turnover Hl). lra.
  Qed.
End Match.
