From RQ Require Import Model.Num Model.Account Model.Reserve Proofs.NumFacts.
From Coq Require Import Lqa.
Open Scope Q_scope.

Definition wf_order (o : rorder) := 0 < r_qty o /\ 0 <= r_filled o /\ r_filled o < r_qty o /\ 0 <= r_reserve o.
(* what the reserve machine asks of the events the account hears: a new order is well formed, unfilled and has a fresh id; a fill is
   positive and within the remainder of the order it names.  Nothing is asked of a terminal announcement, nor of a fill of an id that is
   not in the book: rstep ignores both.  ComposeManyFacts shows that the order machines of C04, in any interleaving, announce such events. *)
Definition wf_ev (s : rstate) (e : rev) : Prop :=
  match e with
  | RPendingNew o => wf_order o /\ r_filled o == 0 /\ rfind (r_id o) (rs_book s) = None
  | RTrade id q => forall o, rfind id (rs_book s) = Some o -> 0 < q /\ q <= r_qty o - r_filled o
  | RTerminal id => True
  end.
Definition RInv (s : rstate) := rs_frozen s == rtotal (rs_book s) /\ Forall wf_order (rs_book s).

Lemma rtotal_app l1 l2 : rtotal (l1 ++ l2) == rtotal l1 + rtotal l2.
Proof. induction l1 as [|o t IH]; cbn; [ring|rewrite IH; ring]. Qed.
Lemma rtotal_remove id l o : rfind id l = Some o -> rtotal (rremove id l) == rtotal l - rshare o.
Proof. induction l as [|x t IH]; cbn; [discriminate|]. destruct (Nat.eqb (r_id x) id) eqn:E.
  - intros [= ->]. ring. - intros H. cbn. rewrite IH by assumption. ring. Qed.
Lemma rtotal_replace o' l o : rfind (r_id o') l = Some o -> rtotal (rreplace o' l) == rtotal l - rshare o + rshare o'.
Proof. induction l as [|x t IH]; cbn; [discriminate|]. destruct (Nat.eqb (r_id x) (r_id o')) eqn:E.
  - intros [= ->]. cbn. ring. - intros H. cbn. rewrite IH by assumption. ring. Qed.
Lemma rfind_id id l o : rfind id l = Some o -> r_id o = id.
Proof. induction l as [|x t IH]; cbn; [discriminate|]. destruct (Nat.eqb_spec (r_id x) id) as [E|E]; [intros [= ->]; exact E|assumption]. Qed.
Lemma rfind_wf id l o : Forall wf_order l -> rfind id l = Some o -> wf_order o.
Proof. induction l as [|x t IH]; cbn; [discriminate|]. intros F. inversion F; subst. destruct (Nat.eqb (r_id x) id); [intros [= ->]; assumption | auto]. Qed.
Lemma Forall_rremove id l : Forall wf_order l -> Forall wf_order (rremove id l).
Proof. induction l as [|x t IH]; cbn; [auto|]. intros F; inversion F; subst. destruct (Nat.eqb (r_id x) id); [assumption| constructor; auto]. Qed.
Lemma Forall_rreplace o' l : wf_order o' -> Forall wf_order l -> Forall wf_order (rreplace o' l).
Proof. intros W. induction l as [|x t IH]; cbn; [auto|]. intros F; inversion F; subst. destruct (Nat.eqb (r_id x) (r_id o')); constructor; auto. Qed.

Lemma release_trade_share o q : 0 < r_qty o -> release_trade (Some (r_qty o, r_reserve o)) q == q / r_qty o * r_reserve o.
Proof. intros H. unfold release_trade. destruct (qeq_b q (r_qty o)) eqn:E; cbn [negb].
  - apply qeq_b_true in E. rewrite E. field. lra. - qnorm. reflexivity. Qed.
Lemma release_terminal_share o : 0 < r_qty o -> release_terminal (r_qty o) (r_filled o) (r_reserve o) == rshare o.
Proof. intros H. unfold release_terminal, rshare. destruct (qeq_b (r_filled o) 0) eqn:E; cbn [negb].
  - apply qeq_b_true in E. rewrite E. field. lra. - qnorm. reflexivity. Qed.
(* a fill of q takes q / quantity of the reserve out of the order's share *)
Lemma rshare_fill o q : 0 < r_qty o ->
  rshare {| r_id := r_id o; r_qty := r_qty o; r_filled := qadd (r_filled o) q; r_reserve := r_reserve o |} == rshare o - q / r_qty o * r_reserve o.
Proof. intros H. unfold rshare. cbn [r_qty r_filled r_reserve]. rewrite qadd_ok. field. lra. Qed.

Theorem rstep_inv s e : RInv s -> wf_ev s e -> RInv (rstep s e).
Proof.
  intros [HI HW] He. destruct e as [o | id q | id]; cbn [rstep].
  - (* a new order *) destruct He as [Wo [Hf _]]. split; cbn [rs_frozen rs_book].
    + rewrite qadd_ok, rtotal_app, HI. cbn [rtotal]. unfold rshare. rewrite Hf. destruct Wo as [Wq _]. field. lra.
    + apply Forall_app. split; [assumption|constructor; [assumption|constructor]].
  - (* a fill *) destruct (rfind id (rs_book s)) as [o|] eqn:F; [|split; assumption].
    pose proof (rfind_wf _ _ _ HW F) as (Wq & Wf0 & Wf & Wr). destruct (He o F) as [Hq0 Hq1].
    pose proof (rshare_fill o q Wq) as Hsh. rewrite <- (release_trade_share o q Wq) in Hsh.
    cbn [r_filled r_qty]. set (o' := {| r_id := r_id o; r_qty := r_qty o; r_filled := qadd (r_filled o) q; r_reserve := r_reserve o |}) in *.
    qcase (qeq_b (qadd (r_filled o) q) (r_qty o)) E; rewrite qadd_ok in E; split; cbn [rs_frozen rs_book].
    + (* the fill completes the order: what is left of its share is 0 *)
      rewrite qsub_ok, HI, (rtotal_remove id _ o F). assert (Z : rshare o' == 0) by (unfold rshare, o'; cbn [r_qty r_filled r_reserve]; rewrite qadd_ok, E; field; lra). lra.
    + apply Forall_rremove; assumption.
    + rewrite <- (rfind_id _ _ _ F) in F. rewrite qsub_ok, HI, (rtotal_replace o' _ o F). lra.
    + apply Forall_rreplace; [|assumption]. unfold wf_order, o'; cbn [r_qty r_filled r_reserve]. rewrite qadd_ok. repeat split; lra.
  - (* a terminal announcement *) destruct (rfind id (rs_book s)) as [o|] eqn:F; [|split; assumption].
    pose proof (rfind_wf _ _ _ HW F) as [Wq _].
    split; cbn [rs_frozen rs_book]; [rewrite qsub_ok, (release_terminal_share o Wq), HI, (rtotal_remove id _ o F); ring | apply Forall_rremove; assumption].
Qed.

Fixpoint wf_run (s : rstate) (evs : list rev) : Prop :=
  match evs with [] => True | e :: t => wf_ev s e /\ wf_run (rstep s e) t end.
Lemma wf_run_app a : forall s b, wf_run s a -> wf_run (fold_left rstep a s) b -> wf_run s (a ++ b).
Proof. induction a as [|e t IH]; intros s b Ha Hb; cbn in *; [exact Hb|]. destruct Ha as [He Ht]. split; [exact He|]. apply IH; assumption. Qed.
Theorem frozen_invariant evs : forall s, RInv s -> wf_run s evs -> RInv (fold_left rstep evs s).
Proof. induction evs as [|e t IH]; cbn; intros s I W; [assumption|]. destruct W as [We Wt]. apply IH; [apply rstep_inv; assumption|assumption]. Qed.

Lemma rshare_nonneg o : wf_order o -> 0 <= rshare o.
Proof. intros [Wq [Wf0 [Wf Wr]]]. unfold rshare. apply Qmult_le_0_compat; [|assumption].
  apply Qle_shift_div_l; [assumption|]. lra. Qed.
Lemma rtotal_nonneg l : Forall wf_order l -> 0 <= rtotal l.
Proof. induction 1 as [|o t Ho _ IH]; cbn; [lra|]. pose proof (rshare_nonneg o Ho). lra. Qed.
Corollary frozen_nonneg s : RInv s -> 0 <= rs_frozen s.
Proof. intros [H W]. rewrite H. apply rtotal_nonneg; assumption. Qed.
Corollary frozen_zero_when_no_open s : RInv s -> rs_book s = [] -> rs_frozen s == 0.
Proof. intros [H _] B. rewrite H, B. reflexivity. Qed.
