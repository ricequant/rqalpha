(* The per-bar liquidity cap as an invariant of the matcher state machine, for every sequence of matcher calls. *)
From Coq Require Import Lqa.
From RQ Require Import Model.Num Model.Matcher Model.MatcherRun Proofs.NumFacts Proofs.MatcherFacts.
Open Scope Q_scope.

Lemma tget_tadd_same m k x : tget (tadd m k x) k == tget m k + x.
Proof. unfold tadd. cbn [tget]. rewrite Nat.eqb_refl. qnorm. reflexivity. Qed.
Lemma tget_tadd_other m k k' x : k' <> k -> tget (tadd m k x) k' = tget m k'.
Proof. intros N. unfold tadd. cbn [tget]. destruct (Nat.eqb_spec k' k); [contradiction|reflexivity]. Qed.

(* for every sequence of matcher calls and updates: the quantity traded in instrument k since the last update is what the matcher
   has booked, and stays inside any bound B that every filled call on k (among the calls P admits) keeps *)
Section Cap.
  Variables (k : nat) (B : Q) (P : mop -> Prop).
  Hypothesis capped : forall a t price qty ct rc, P (MMatch k a) -> run_match t a = Filled price qty ct rc -> t + qty <= B.
  Definition CapInv (s : mstate) : Prop := fills_of k (ms_fills s) == tget (ms_turnover s) k /\ fills_of k (ms_fills s) <= Qmax 0 B.

  Lemma cap_init : CapInv ms_init.
  Proof. split; [reflexivity|apply Q.le_max_l]. Qed.
  Lemma cap_step s op : CapInv s -> P op -> CapInv (mstep s op).
  Proof.
    intros [A C] G. destruct op as [|k' a]; [apply cap_init|].
    cbn [mstep]. destruct (run_match (tget (ms_turnover s) k') a) as [| | |price qty ct rc] eqn:M; try (split; assumption).
    unfold CapInv. cbn [ms_turnover ms_fills fills_of]. destruct (Nat.eqb_spec k k') as [<-|N].
    - rewrite tget_tadd_same, A, Qplus_comm. split; [reflexivity|].
      eapply Qle_trans; [exact (capped _ _ _ _ _ _ G M)|apply Q.le_max_r].
    - rewrite tget_tadd_other by exact N. split; assumption.
  Qed.
  Theorem total_fills_per_bar ops : Forall P ops -> CapInv (mrun ops).
  Proof. unfold mrun. generalize ms_init cap_init. induction ops as [|op ops IH]; intros s I F; [exact I|].
    inversion F; subst. apply IH; [apply cap_step|]; assumption. Qed.
End Cap.

(* a matcher call that the cap of instrument k (volume v, fraction pct) governs: other instruments are unconstrained *)
Definition governed (k : nat) (v pct : Q) (op : mop) : Prop :=
  match op with
  | MUpdate => True
  | MMatch k' a => k' = k -> m_volume_limit (a_g a) = true /\ m_volume_percent (a_g a) = pct /\ a_vol a = Some v /\
                             0 < a_unfilled a /\ 0 < i_lot (a_i a)
  end.
(* ... and, for the allowance rounded down to whole lots (what the property names), the lot size of the calls on k *)
Definition governed_lots (k : nat) (v pct lot : Q) (op : mop) : Prop :=
  governed k v pct op /\ match op with MUpdate => True | MMatch k' a => k' = k -> i_lot (a_i a) = lot end.

Lemma governed_capped {k v pct a t price qty ct rc} : governed k v pct (MMatch k a) -> run_match t a = Filled price qty ct rc ->
  t + qty <= lot_cap (a_g a) (a_i a) v.
Proof. intros G M. destruct (G eq_refl) as (VL & _ & EV & HU & HL).
  apply fill_quantity_shape in M as (_ & _ & _ & CAP); auto. Qed.

(* the bookkeeping the correspondence replays is the model's: after a filled call the turnover is the old one plus the fill *)
Lemma mstep_turnover s k a : tget (ms_turnover (mstep s (MMatch k a))) k ==
  tget (ms_turnover s) k + match run_match (tget (ms_turnover s) k) a with Filled _ q _ _ => q | _ => 0 end.
Proof. cbn [mstep]. destruct (run_match (tget (ms_turnover s) k) a); try lra. cbn [ms_turnover]. apply tget_tadd_same. Qed.
