From Coq Require Import List Arith Lia.
Import ListNotations.
From RQ Require Import Model.Broker.

Lemma fold_left_inv {A B} (f : A -> B -> A) (Q : A -> Prop) l : (forall s x, In x l -> Q s -> Q (f s x)) -> forall s, Q s -> Q (fold_left f l s).
Proof. induction l as [|x l IH]; intros Hf s H; [exact H|].
  apply IH; [intros s' y Hy; apply Hf; right; exact Hy|apply Hf; [left; reflexivity|exact H]]. Qed.

Section Facts.
  Variable fin : nat -> nat -> bool.
  (* every matcher call made while the auction is on carries open_auction = True *)
  Definition auction_calls_flagged (s : bstate) : Prop := Forall (fun c => c_phase c = BAuction -> c_auction c = true) (bk_calls s).
  Lemma call_all_flagged s ids flag ph : (ph = BAuction -> flag = true) -> auction_calls_flagged s -> auction_calls_flagged (call_all fin s ids flag ph).
  Proof. intros Hf. apply (fold_left_inv _ auction_calls_flagged). intros s' id _ H.
    destruct (mem id (bk_final s')); [exact H|]. constructor; [exact Hf|exact H]. Qed.
  Lemma bmatch_flagged s ph : auction_calls_flagged s -> auction_calls_flagged (bmatch fin s ph).
  Proof. intros H. unfold auction_calls_flagged, bmatch. cbn [bk_calls]. apply call_all_flagged; [reflexivity|].
    destruct ph; [exact H|apply call_all_flagged; [discriminate|exact H]]. Qed.
  Lemma bstep_flagged s o : auction_calls_flagged s -> auction_calls_flagged (bstep fin s o).
  Proof.
    intros H. destruct o as [ph id imm| |id|]; cbn [bstep].
    - destruct imm; [apply bmatch_flagged|]; destruct ph; exact H.
    - apply bmatch_flagged; exact H.
    - destruct (mem id (bk_final s)); exact H.
    - exact H.
  Qed.
  Theorem auction_rule ops : auction_calls_flagged (brun fin ops).
  Proof. apply (fold_left_inv _ auction_calls_flagged); [intros s o _; apply bstep_flagged|constructor]. Qed.

  (* nothing rests in the bar book after the close *)
  Theorem nothing_open_after_close ops : bk_open (bstep fin (brun fin ops) BAfterTrading) = [].
  Proof. reflexivity. Qed.
  (* after a matching round the auction book is empty and no final order rests *)
  Theorem match_empties_auction_book s ph : bk_auction (bmatch fin s ph) = [] /\ Forall (fun id => mem id (bk_final (bmatch fin s ph)) = false) (bk_open (bmatch fin s ph)).
  Proof. split; [reflexivity|]. unfold bmatch; cbn [bk_open bk_final]. apply Forall_forall. intros x Hx. apply filter_In in Hx.
    destruct Hx as [_ Hx], (mem x _); [discriminate|reflexivity]. Qed.
End Facts.

(* the open_auction flag is set only on the first matcher call of an order that was submitted during the auction *)
Section First.
  Variable fin : nat -> nat -> bool.
  (* bk_calls is newest first: `post` are the calls made before c *)
  Definition flag_first (cs : list bcall) : Prop := forall pre c post, cs = pre ++ c :: post -> c_auction c = true -> ncalls (c_id c) post = 0.
  Definition fresh_in (s : bstate) (id : nat) : Prop := ncalls id (bk_calls s) = 0 /\ ~ In id (bk_auction s) /\ ~ In id (bk_open s).
  (* the orders of the auction book are distinct, in no other book and not yet handed to the matcher *)
  Record binv (s : bstate) : Prop := {
    inv_uncalled : forall id, In id (bk_auction s) -> ncalls id (bk_calls s) = 0;
    inv_nodup : NoDup (bk_auction s);
    inv_first : flag_first (bk_calls s);
    inv_apart : forall id, In id (bk_open s) -> ~ In id (bk_auction s) }.

  Lemma ncalls_cons id c cs : ncalls id (c :: cs) = (if Nat.eqb (c_id c) id then S (ncalls id cs) else ncalls id cs).
  Proof. unfold ncalls. cbn [filter]. destruct (Nat.eqb (c_id c) id); reflexivity. Qed.
  Lemma flag_first_cons c cs : flag_first cs -> (c_auction c = true -> ncalls (c_id c) cs = 0) -> flag_first (c :: cs).
  Proof.
    intros H Hc pre c' post E Hf. destruct pre as [|p pre]; cbn [app] in E; inversion E; subst.
    - apply Hc; exact Hf.
    - apply (H pre c' post eq_refl Hf).
  Qed.
  (* calls with the flag off never disturb the invariant as long as they are not made on orders of the auction book *)
  Lemma call_all_off s ids ph : binv s -> (forall id, In id ids -> ~ In id (bk_auction s)) -> binv (call_all fin s ids false ph).
  Proof.
    (* the auction book is carried along unchanged, so that Hd still speaks of the later states *)
    intros H Hd. refine (proj1 (fold_left_inv _ (fun s' => binv s' /\ bk_auction s' = bk_auction s) ids _ s (conj H eq_refl))).
    intros s' id Hi I. destruct (mem id (bk_final s')); [exact I|]. destruct I as [[Hu Hn Hf Ha] E]. split; [split|]; cbn [call bk_open bk_auction bk_calls]; auto.
    - intros x Hx. rewrite ncalls_cons. cbn [c_id]. destruct (Nat.eqb_spec id x) as [<-|_]; [|apply Hu, Hx].
      rewrite E in Hx. destruct (Hd id Hi Hx).
    - apply flag_first_cons; [exact Hf|discriminate].
  Qed.
  (* the auction book, each order once, flag on: every such call is the order's first *)
  Lemma call_all_on s ids ph : flag_first (bk_calls s) -> NoDup ids -> (forall id, In id ids -> ncalls id (bk_calls s) = 0) ->
    flag_first (bk_calls (call_all fin s ids true ph)).
  Proof.
    revert s. induction ids as [|id ids IH]; intros s Hf Hn Hu; cbn [call_all fold_left]; [exact Hf|].
    apply NoDup_cons_iff in Hn as [Hni Hn']. destruct (mem id (bk_final s)); [apply IH; auto using in_cons|].
    apply IH; [|exact Hn'|]; cbn [call bk_calls].
    - apply flag_first_cons; [exact Hf|intros _; apply Hu, in_eq].
    - intros x Hx. rewrite ncalls_cons. cbn [c_id]. destruct (Nat.eqb_spec id x) as [<-|_]; [contradiction|apply Hu, in_cons, Hx].
  Qed.
  Lemma call_all_calls_mono s ids flag ph id : ncalls id (bk_calls s) <= ncalls id (bk_calls (call_all fin s ids flag ph)).
  Proof. apply (fold_left_inv _ (fun s' => ncalls id (bk_calls s) <= ncalls id (bk_calls s'))); [|lia]. intros s' x _ H.
    destruct (mem x (bk_final s')); [exact H|]. cbn [call bk_calls]. rewrite ncalls_cons. destruct (Nat.eqb _ _); lia. Qed.
  Lemma bmatch_inv s ph : binv s -> binv (bmatch fin s ph).
  Proof.
    intros H. unfold bmatch. set (s1 := match ph with BAuction => _ | BTrading => _ end).
    assert (binv s1) as [Hu Hn Hf _] by (unfold s1; destruct ph; [exact H|apply call_all_off; [exact H|apply (inv_apart _ H)]]).
    split; cbn [bk_open bk_auction bk_calls]; [intros id []|constructor|apply call_all_on; assumption|intros id _ []].
  Qed.

  (* every submitted order is a new one *)
  Fixpoint ok_ops (s : bstate) (ops : list bop) : Prop :=
    match ops with
    | [] => True
    | o :: t => match o with BSubmit _ id _ => fresh_in s id | _ => True end /\ ok_ops (bstep fin s o) t
    end.
  Lemma bstep_inv s o : binv s -> match o with BSubmit _ id _ => fresh_in s id | _ => True end -> binv (bstep fin s o).
  Proof.
    intros H Hf. destruct o as [ph id imm| |id|]; cbn [bstep].
    - set (s1 := match ph with BAuction => _ | BTrading => _ end). destruct Hf as (F1 & F2 & F3).
      assert (binv s1) as J1.
      { destruct H as [Hu Hn Hff Ha]. unfold s1. destruct ph; split; cbn [bk_open bk_auction bk_calls]; auto.
        - (* joining the auction book: uncalled *) intros x Hx. apply in_app_iff in Hx as [Hx|[<-|[]]]; [apply Hu; exact Hx | exact F1].
        - (* ... once *) apply (NoDup_Add (Add_app id (bk_auction s) [])). rewrite app_nil_r. auto.
        - (* ... in no other book *) intros x Hx Hy. apply in_app_iff in Hy as [Hy|[<-|[]]]; [exact (Ha x Hx Hy) | contradiction].
        - (* joining the bar book *) intros x Hx Hy. apply in_app_iff in Hx as [Hx|[<-|[]]]; [exact (Ha x Hx Hy) | contradiction]. }
      destruct imm; [apply bmatch_inv|]; exact J1.
    - apply bmatch_inv, H.
    - destruct (mem id (bk_final s)); [exact H|]. destruct H as [Hu Hn Hff Ha]. split; cbn [bk_open bk_auction bk_calls].
      + intros x Hx. apply filter_In in Hx. apply Hu, Hx.
      + apply NoDup_filter, Hn.
      + exact Hff.
      + intros x Hx Hy. apply filter_In in Hx, Hy. apply (Ha x); tauto.
    - destruct H as [Hu Hn Hff Ha]. split; cbn [bk_open bk_auction bk_calls]; auto.
  Qed.
  Lemma brun_inv ops : forall s, binv s -> ok_ops s ops -> binv (fold_left (bstep fin) ops s).
  Proof. induction ops as [|o ops IH]; intros s J H; [exact J|]. apply IH; [apply bstep_inv; [exact J|apply H]|apply H]. Qed.
  Lemma binv_init : binv {| bk_open := []; bk_auction := []; bk_final := []; bk_calls := [] |}.
  Proof. split; cbn; [intros ? []|constructor|intros [|? ?]; discriminate|intros ? []]. Qed.
End First.

(* the program the model was written for (expected_match) interprets to the model's matching round; Gen/BrokerProg.v checks, through
   prog_eqb_eq, that the program regenerated from SimulationBroker._match is that one *)
Lemma interp_expected_match fin ph s : interp fin ph expected_match s = bmatch fin s ph.
Proof. unfold interp, expected_match, bmatch. cbn [fold_left interp_prim]. destruct ph; reflexivity. Qed.
Lemma prog_eqb_eq a : forall b, prog_eqb a b = true -> a = b.
Proof. induction a as [|x s IH]; intros [|y t] H; cbn in H; try discriminate; [reflexivity|].
  apply andb_prop in H as [E H]. rewrite (IH t H). destruct x, y; cbn in E; try discriminate; reflexivity. Qed.
