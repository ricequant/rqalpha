From Coq Require Import Lia.
From RQ Require Import Model.Num Model.Position Model.Account Model.AccountRun Model.Isolation Proofs.AccountFacts.
Open Scope Z_scope.

(* two process states a run cannot tell apart: same switches, environment and caches; the margin switch may differ only while no
   futures position was opened in this run; ids, counted from b and b', agree *)
Definition sim (opened hf : bool) (b b' : Z) (s s' : proc) : Prop :=
  pr_switches s = pr_switches s' /\ pr_env s = pr_env s' /\ pr_cache s = pr_cache s' /\ pr_next_id s - b = pr_next_id s' - b' /\
  (opened = true -> pr_margin_on s = true /\ pr_margin_on s' = true) /\
  (hf = true -> pr_future_apis s = true /\ pr_future_apis s' = true).
Definition opens (opened : bool) (o : pop) : bool := match o with POpenFuture => true | _ => opened end.
Definition rename (b : Z) (o : pout) : pout := match o with OId z => OId (z - b) | x => x end.
Lemma sumq_zero ms : Forall (fun m => m = 0%Q) ms -> sumq ms = 0%Q.
Proof. induction 1 as [|m ms Hm _ IH]; cbn [sumq]; [reflexivity|]. rewrite Hm, IH. reflexivity. Qed.
Lemma wf_ops_cons opened o t : wf_ops opened (o :: t) -> wf_ops (opens opened o) t.
Proof. destruct o; cbn; tauto. Qed.
(* one operation keeps the states indistinguishable and shows the same output (ids renamed) *)
Lemma pstep_sim data opened hf b b' s s' o t : sim opened hf b b' s s' -> wf_ops opened (o :: t) -> (hf = false -> o <> PFutureApi) ->
  sim (opens opened o) hf b b' (fst (pstep data s o)) (fst (pstep data s' o)) /\
  rename b (snd (pstep data s o)) = rename b' (snd (pstep data s' o)).
Proof.
  unfold sim. destruct s as [sw env cache m id fa], s' as [sw' env' cache' m' id' fa']; cbn [pr_switches pr_env pr_cache pr_next_id pr_margin_on pr_future_apis].
  intros (<- & <- & <- & Hid & Hm & Hf) Hwf Hsafe. destruct o; cbn [pstep opens pr_switches pr_env pr_cache pr_next_id pr_margin_on pr_future_apis];
    try destruct (lookup key cache); cbn [fst snd rename pr_switches pr_env pr_cache pr_next_id pr_margin_on pr_future_apis];
    (split; [repeat apply conj; auto|try reflexivity]).
  - (* PNewId: the states *) rewrite !Z.add_sub_swap, Hid. reflexivity.
  - (* PNewId: the ids *) f_equal. exact Hid.
  - (* PMargin *) destruct opened.
    + destruct (Hm eq_refl) as [-> ->]. reflexivity.
    + rewrite (sumq_zero margins (proj1 Hwf eq_refl)). destruct m, m'; reflexivity.
  - (* PFutureApi *) destruct hf; [destruct (Hf eq_refl) as [-> ->]; reflexivity|destruct (Hsafe eq_refl eq_refl)].
Qed.
Lemma prun_sim data hf ops : forall opened s s' b b', sim opened hf b b' s s' -> wf_ops opened ops -> api_safe hf ops ->
  norm b (prun data s ops) = norm b' (prun data s' ops).
Proof.
  induction ops as [|o ops IH]; intros opened s s' b b' Hsim Hwf Hsafe; [reflexivity|].
  destruct (pstep_sim data opened hf b b' s s' o ops Hsim Hwf) as [Hsim' Hout]; [intros E ->; apply (Hsafe E); left; reflexivity|].
  cbn [prun norm map]. f_equal; [exact Hout|]. apply (IH _ _ _ _ _ Hsim' (wf_ops_cons _ _ _ Hwf)). intros E Hin. apply (Hsafe E). right. exact Hin.
Qed.
(* a run is a function of configuration, data and strategy: repeating it gives the same result *)
Theorem run_deterministic data cfg hf rid ops p : prun data (boot cfg hf rid p) ops = prun data (boot cfg hf rid p) ops.
Proof. reflexivity. Qed.

(* the account kernel: positions of instruments the strategy never touches - extra entries at the end of the account's position table -
   do not change what happens to the others *)
Definition extend (a : account) (extra : list (pcfg * pos)) : account := with_pos a (a_pos a ++ extra).
Definition ev_index (e : aev) : option nat :=
  match e with
  | ETrade i _ _ | EMark i _ | EReset i | EBook i _ _ | EPay i _ | ESplit i _ | EDelist i _ | ESettleFut i _ | EExpire i => Some i
  | _ => None
  end.
Definition local_to (n : nat) (e : aev) : Prop :=
  match e with ELiquidate _ => False | _ => match ev_index e with Some i => (i < n)%nat | None => True end end.

Lemma upd_app_l {A} (l extra : list A) i x : (i < length l)%nat -> upd i x (l ++ extra) = upd i x l ++ extra.
Proof.
  revert i. induction l as [|h t IH]; intros i H; cbn [length] in H; [lia|].
  destruct i as [|i]; cbn [app upd]; [reflexivity|]. rewrite IH by lia. reflexivity.
Qed.
(* an event that names one of the strategy's entries reads and rewrites that entry only; the table keeps its length *)
Lemma on_entry_local a extra i f : (i < length (a_pos a))%nat ->
  on_entry (extend a extra) i f = extend (on_entry a i f) extra /\ length (a_pos (on_entry a i f)) = length (a_pos a).
Proof.
  intros H. unfold on_entry, set_entry, extend, with_pos; cbn [a_pos]. rewrite (nth_error_app1 _ extra H).
  destruct (nth_error (a_pos a) i) as [[c p]|]; [|split; reflexivity].
  cbn [a_pos a_total_cash a_frozen a_liab a_pending a_mgmt_fees]. rewrite (upd_app_l _ extra i _ H), upd_length. split; reflexivity.
Qed.
Lemma astep_local g a extra e : local_to (length (a_pos a)) e ->
  astep g (extend a extra) e = extend (astep g a e) extra /\ length (a_pos (astep g a e)) = length (a_pos a).
Proof.
  intros H. destruct e; cbn [local_to ev_index] in H; try contradiction; cbn [astep];
    try (apply on_entry_local; exact H); try (split; reflexivity).
  (* trade and mark: as on_entry *)
  1,2: unfold acc_apply_trade, mark, extend, with_pos, with_frozen; cbn [a_pos a_total_cash a_frozen a_liab a_pending a_mgmt_fees];
    rewrite (nth_error_app1 _ extra H); destruct (nth_error (a_pos a) i) as [[c p]|]; [|split; reflexivity];
    cbn [a_pos]; rewrite (upd_app_l _ extra i _ H), upd_length; split; reflexivity.
  (* EInterest *) unfold accrue_interest. change (a_liab (extend a extra)) with (a_liab a). destruct (qlt_b 0 (a_liab a)); split; reflexivity.
Qed.
