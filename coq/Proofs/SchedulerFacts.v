From RQ Require Import Model.Num Model.Scheduler.
From Coq Require Import Lia.
Open Scope Z_scope.

(* a well-formed calendar: ordinals strictly increasing, yyyymm non-decreasing along it *)
Inductive cwf : list cday -> Prop :=
| cwf0 : cwf [] | cwf1 x : cwf [x]
| cwf2 x y t : c_ord x < c_ord y -> c_ym x <= c_ym y -> cwf (y :: t) -> cwf (x :: y :: t).
Lemma cwf_tail x t : cwf (x :: t) -> cwf t.
Proof. intros H; inversion H; subst; [constructor|assumption]. Qed.
Lemma cwf_lb x t : cwf (x :: t) -> forall y, In y t -> c_ord x < c_ord y /\ c_ym x <= c_ym y.
Proof. revert x. induction t as [|z t IH]; intros x H y Hy; [destruct Hy|]. inversion H as [| |? ? ? Ho Hm Hz]; subst.
  destruct Hy as [->|Hy]; [lia|]. destruct (IH z Hz y Hy). lia. Qed.
Lemma cwf_ym_mono l : cwf l -> forall a b, In a l -> In b l -> c_ord a <= c_ord b -> c_ym a <= c_ym b.
Proof. induction l as [|x t IH]; intros H a b Ha Hb Hab; [destruct Ha|]. destruct Ha as [<-|Ha], Hb as [<-|Hb]; [lia|..].
  - apply (cwf_lb _ _ H b Hb).
  - destruct (cwf_lb _ _ H a Ha). lia.
  - apply (IH (cwf_tail _ _ H) a b Ha Hb Hab). Qed.
Lemma week_of_mono a b : c_ord a <= c_ord b -> week_of a <= week_of b.
Proof. intros H. unfold week_of. apply Z.div_le_mono; lia. Qed.

Lemma last_in (l : list cday) d : l <> [] -> In (last l d) l.
Proof. intros H. rewrite (app_removelast_last d H) at 2. apply in_elt. Qed.

(* the cache invariant: after next_day the caches are the trading days of today's week / month, for every sequence of
   trading days (today later than the day the cache was filled for) *)
Section Cache.
  Variable bucket : cday -> Z.
  Variable cal : list cday.
  Hypothesis bucket_mono : forall a b, In a cal -> In b cal -> c_ord a <= c_ord b -> bucket a <= bucket b.
  Definition fillb (today : cday) : list cday := filter (fun d => bucket d =? bucket today) cal.
  Definition refresh (cache : list cday) (today : cday) : list cday :=
    match cache with [] => fillb today | _ => if last_ord cache <? c_ord today then fillb today else cache end.
  Lemma refresh_correct cache prev today : In prev cal -> In today cal -> cache = fillb prev -> c_ord prev < c_ord today ->
    refresh cache today = fillb today.
  Proof. intros Hp Ht -> Hlt. unfold refresh. destruct (fillb prev) as [|x t] eqn:C; [reflexivity|]. rewrite <- C.
    destruct (last_ord (fillb prev) <? c_ord today) eqn:L; [reflexivity|]. unfold last_ord in L.
    (* the last cached day is in prev's bucket and not before today, so prev and today share a bucket *)
    assert (Hz : In (last (fillb prev) {| c_ord := 0; c_ym := 0 |}) (fillb prev)) by (apply last_in; rewrite C; discriminate).
    apply filter_In in Hz. destruct Hz as [Hz Hb].
    pose proof (bucket_mono prev today Hp Ht ltac:(lia)). pose proof (bucket_mono today _ Ht Hz ltac:(lia)).
    unfold fillb. replace (bucket prev) with (bucket today) by lia. reflexivity. Qed.
  Lemma refresh_first today : refresh [] today = fillb today. Proof. reflexivity. Qed.
End Cache.

(* day rules: the n-th rule compares today with the entry of the bucket at Python index n *)
Lemma same_day_some o today :
  match o with Some d => same_day d today | None => false end = true <-> exists d : cday, o = Some d /\ c_ord d = c_ord today.
Proof. destruct o as [d|]; [|split; [discriminate|intros (d' & H & _); discriminate]].
  unfold same_day. split; [intros H; exists d; split; [reflexivity|lia] | intros (d' & [= <-] & H); lia]. Qed.

Theorem daily_bar_rule ranges s n : in_ranges ranges n = true -> should_trigger ranges true false s n = true.
Proof. intros H. unfold should_trigger. rewrite H. reflexivity. Qed.
(* minute frequency: a time 0 < n fires at a bar at or after n when the bar before it was before n *)
Lemma trigger_minute ranges s n : 0 < n ->
  should_trigger ranges false false s n = in_ranges ranges n && (sc_last_minute s <? n) && (n <=? sc_current_minute s).
Proof. intros Hn. unfold should_trigger. destruct (in_ranges ranges n); [|reflexivity]. replace (n =? 0) with false by lia. reflexivity. Qed.

Fixpoint increasing_from (lo : Z) (bars : list Z) : Prop := match bars with [] => True | m :: t => lo < m /\ increasing_from m t end.
Lemma fire_count_none ranges s n bars : 0 < n -> n <= sc_last_minute s -> increasing_from (sc_last_minute s) bars -> fire_count ranges s n bars = O.
Proof. revert s. induction bars as [|m t IH]; intros s Hn Hl Hinc; cbn [fire_count]; [reflexivity|]. destruct Hinc as [Hm Ht].
  rewrite trigger_minute, IH by (cbn; assumption || lia). cbn [at_bar sc_last_minute]. replace (sc_last_minute s <? n) with false by lia.
  rewrite andb_false_r. reflexivity. Qed.
