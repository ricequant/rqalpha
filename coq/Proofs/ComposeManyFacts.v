(* Composition for ANY number of orders and ANY interleaving of their lives: the broker's per-order machines (Model/Order.v) drive the
   account's reserve machine (Model/Reserve.v); the protocol hypothesis of the reserved-cash invariant holds for the whole interleaved
   event stream, so reserved cash = sum over the open orders of the unfilled fraction of their reserves - with no assumption left. *)
From Coq Require Import Lqa.
From RQ Require Import Model.Num Model.Order Model.Reserve Proofs.NumFacts Proofs.OrderFacts Proofs.ReserveFacts Proofs.ComposeFacts.

Open Scope Q_scope.

Definition ids (l : list rorder) : list nat := map r_id l.
Lemma rfind_none_notin k l : rfind k l = None -> ~ In k (ids l).
Proof. induction l as [|x t IH]; cbn; [tauto|]. destruct (Nat.eqb_spec (r_id x) k) as [E|E]; [discriminate|]. intros H [A|A]; [contradiction|exact (IH H A)]. Qed.
Lemma notin_rfind_none k l : ~ In k (ids l) -> rfind k l = None.
Proof. induction l as [|x t IH]; cbn; [reflexivity|]. intros H. destruct (Nat.eqb_spec (r_id x) k) as [E|E]; [tauto|apply IH; tauto]. Qed.
Lemma rfind_app k l o : rfind k (l ++ [o]) = match rfind k l with Some x => Some x | None => if Nat.eqb (r_id o) k then Some o else None end.
Proof. induction l as [|x t IH]; cbn; [reflexivity|]. destruct (Nat.eqb (r_id x) k); [reflexivity|exact IH]. Qed.
Lemma ids_rremove_sub k l x : In x (ids (rremove k l)) -> In x (ids l).
Proof. induction l as [|y t IH]; cbn; [tauto|]. destruct (Nat.eqb (r_id y) k); cbn; [tauto|]. intros [A|A]; [left; exact A|right; exact (IH A)]. Qed.
Lemma nodup_rremove k l : NoDup (ids l) -> NoDup (ids (rremove k l)).
Proof. induction l as [|y t IH]; cbn; [auto|]. intros N. inversion N as [|? ? Hn Ht]; subst. destruct (Nat.eqb (r_id y) k); [exact Ht|]. cbn. constructor; [|exact (IH Ht)].
  intros A. apply Hn. exact (ids_rremove_sub _ _ _ A). Qed.
Lemma rfind_rremove_same k l : NoDup (ids l) -> rfind k (rremove k l) = None.
Proof. induction l as [|y t IH]; cbn; [reflexivity|]. intros N. inversion N as [|? ? Hn Ht]; subst. destruct (Nat.eqb (r_id y) k) eqn:E.
  - apply Nat.eqb_eq in E. subst k. apply notin_rfind_none. exact Hn.
  - cbn. rewrite E. exact (IH Ht). Qed.
Lemma rfind_rremove_other k k' l : k' <> k -> rfind k' (rremove k l) = rfind k' l.
Proof. intros N. induction l as [|y t IH]; cbn; [reflexivity|]. destruct (Nat.eqb_spec (r_id y) k) as [E|E].
  - destruct (Nat.eqb_spec (r_id y) k') as [E'|E']; [congruence|reflexivity].
  - cbn. destruct (Nat.eqb (r_id y) k'); [reflexivity|exact IH]. Qed.
Lemma ids_rreplace o' l : ids (rreplace o' l) = ids l.
Proof. unfold ids. induction l as [|y t IH]; cbn [rreplace map]; [reflexivity|]. destruct (Nat.eqb_spec (r_id y) (r_id o')) as [->|E]; cbn [map]; [reflexivity|rewrite IH; reflexivity]. Qed.
Lemma rfind_rreplace_same o' l x : rfind (r_id o') l = Some x -> rfind (r_id o') (rreplace o' l) = Some o'.
Proof. induction l as [|y t IH]; cbn; [discriminate|]. destruct (Nat.eqb (r_id y) (r_id o')) eqn:E; cbn; [rewrite Nat.eqb_refl; reflexivity|rewrite E; exact IH]. Qed.
Lemma rfind_rreplace_other o' k' l : k' <> r_id o' -> rfind k' (rreplace o' l) = rfind k' l.
Proof. intros N. induction l as [|y t IH]; cbn; [reflexivity|]. destruct (Nat.eqb_spec (r_id y) (r_id o')) as [E|E]; cbn.
  - destruct (Nat.eqb_spec (r_id o') k'), (Nat.eqb_spec (r_id y) k'); congruence.
  - destruct (Nat.eqb (r_id y) k'); [reflexivity|exact IH]. Qed.

Lemma nodup_snoc (l : list nat) x : NoDup l -> ~ In x l -> NoDup (l ++ [x]).
Proof. intros N H. apply (NoDup_Add (Add_app x l [])). rewrite app_nil_r. auto. Qed.

Section Many.
  Variables (qtys reserves : nat -> Q).
  Hypothesis Hq : forall k, 0 < qtys k.
  Hypothesis Hr : forall k, 0 <= reserves k.
  Notation mkk k f := (mk k (qtys k) (reserves k) f).
  Definition upd (os : nat -> ostate) (k : nat) (o : ostate) : nat -> ostate := fun x => if Nat.eqb x k then o else os x.
  (* one input of the broker: input i for the order with id k *)
  Definition gstep (g : (nat -> ostate) * rstate) (ki : nat * oin) : (nat -> ostate) * rstate :=
    let r := ostep (fst g (fst ki)) (snd ki) in
    (upd (fst g) (fst ki) (fst r), fold_left rstep (revs_of (fst ki) (qtys (fst ki)) (reserves (fst ki)) (snd r)) (snd g)).
  Definition gevents (os : nat -> ostate) (ki : nat * oin) : list rev :=
    revs_of (fst ki) (qtys (fst ki)) (reserves (fst ki)) (snd (ostep (os (fst ki)) (snd ki))).

  (* the coupling of an order machine with the reserve book: an active order has its entry there, with the filled quantity it has itself;
     any other order has none *)
  Definition entry_ok (o : ostate) (k : nat) (book : list rorder) : Prop :=
    match os_status o with
    | Active => exists f, rfind k book = Some (mkk k f) /\ f == os_filled o
    | _ => rfind k book = None
    end.
  (* the invariant of the composed machine: the reserve invariant, one entry per id, and every order well formed and coupled with the book *)
  Definition GInv (os : nat -> ostate) (s : rstate) : Prop :=
    RInv s /\ NoDup (ids (rs_book s)) /\ forall k, os_qty (os k) = qtys k /\ OWF (os k) /\ entry_ok (os k) k (rs_book s).

  (* the three kinds of reserve events on the entry of order k, with the frame for every other id *)
  Lemma g_terminal s k f : RInv s -> NoDup (ids (rs_book s)) -> rfind k (rs_book s) = Some (mkk k f) ->
    let s' := rstep s (RTerminal k) in
    RInv s' /\ NoDup (ids (rs_book s')) /\ rfind k (rs_book s') = None /\ forall k', k' <> k -> rfind k' (rs_book s') = rfind k' (rs_book s).
  Proof. intros I N F s'. split; [apply rstep_inv; [exact I|exact Logic.I]|]. unfold s'. cbn [rstep]. rewrite F. cbn [rs_book].
    split; [apply nodup_rremove; exact N|]. split; [apply rfind_rremove_same; exact N|]. intros k' Hk. apply rfind_rremove_other; exact Hk. Qed.
  Lemma g_trade s k f q : RInv s -> NoDup (ids (rs_book s)) -> rfind k (rs_book s) = Some (mkk k f) -> 0 < q -> q <= qtys k - f ->
    let s' := rstep s (RTrade k q) in
    wf_ev s (RTrade k q) /\ RInv s' /\ NoDup (ids (rs_book s')) /\
    rfind k (rs_book s') = (if qeq_b (qadd f q) (qtys k) then None else Some (mkk k (qadd f q))) /\
    forall k', k' <> k -> rfind k' (rs_book s') = rfind k' (rs_book s).
  Proof. intros I N F Hq0 Hle s'.
    assert (W : wf_ev s (RTrade k q)). { cbn [wf_ev]. rewrite F. intros o [= <-]. cbn. split; assumption. }
    split; [exact W|]. split; [apply rstep_inv; assumption|]. unfold s'. cbn [rstep]. rewrite F. cbn [r_id r_qty r_filled r_reserve mk rs_book].
    destruct (qeq_b (qadd f q) (qtys k)).
    - split; [apply nodup_rremove; exact N|]. split; [apply rfind_rremove_same; exact N|]. intros k' Hk. apply rfind_rremove_other; exact Hk.
    - set (o' := {| r_id := k; r_qty := qtys k; r_filled := qadd f q; r_reserve := reserves k |}).
      split; [rewrite ids_rreplace; exact N|]. split.
      + change k with (r_id o') at 1. apply (rfind_rreplace_same o' _ (mkk k f)). exact F.
      + intros k' Hk. apply rfind_rreplace_other. exact Hk. Qed.
  Lemma g_pending s k : RInv s -> NoDup (ids (rs_book s)) -> rfind k (rs_book s) = None ->
    let s' := rstep s (RPendingNew (mkk k 0)) in
    wf_ev s (RPendingNew (mkk k 0)) /\ RInv s' /\ NoDup (ids (rs_book s')) /\ rfind k (rs_book s') = Some (mkk k 0) /\
    forall k', k' <> k -> rfind k' (rs_book s') = rfind k' (rs_book s).
  Proof. intros I N F s'.
    assert (W : wf_ev s (RPendingNew (mkk k 0))).
    { cbn [wf_ev]. split; [unfold wf_order; cbn; repeat split; try lra; [apply Hq|apply Hq|apply Hr]|]. split; [reflexivity|exact F]. }
    split; [exact W|]. split; [apply rstep_inv; assumption|]. unfold s'. cbn [rstep rs_book].
    split. { unfold ids. rewrite map_app. cbn [map r_id mk]. apply nodup_snoc; [exact N|apply rfind_none_notin; exact F]. }
    split; [rewrite rfind_app, F; cbn; rewrite Nat.eqb_refl; reflexivity|].
    intros k' Hk. rewrite rfind_app. destruct (rfind k' (rs_book s)); [reflexivity|]. cbn. destruct (Nat.eqb_spec k k'); [congruence|reflexivity]. Qed.

  (* what one input of order k does to the reserve state: the invariants are kept, the entry of k follows the order, every other entry stays *)
  Definition Local (s : rstate) (k : nat) (o' : ostate) (s' : rstate) : Prop :=
    RInv s' /\ NoDup (ids (rs_book s')) /\ entry_ok o' k (rs_book s') /\ forall k', k' <> k -> rfind k' (rs_book s') = rfind k' (rs_book s).
  Notation rv k evs := (revs_of k (qtys k) (reserves k) evs).

  Lemma local_step s k o i : RInv s -> NoDup (ids (rs_book s)) -> os_qty o = qtys k -> OWF o -> entry_ok o k (rs_book s) -> in_ok o i ->
    wf_run s (rv k (snd (ostep o i))) /\ Local s k (fst (ostep o i)) (fold_left rstep (rv k (snd (ostep o i))) s).
  Proof.
    intros I N Eq W C Hin. unfold entry_ok in C.
    destruct (ostep_trans o i W Hin) as [ |S|pl S Hp|evs st S Cl|p q fee S Hq0 Hle|p q fee c S Hq0 Hle]; try rewrite S in C.
    (* a fill is booked on the entry of k *)
    5,6: destruct C as (f & B & Ef); assert (Hle' : q <= qtys k - f) by (rewrite Ef, <- Eq; lra);
      destruct (g_trade s k f q I N B Hq0 Hle') as (Wt & I' & N' & B' & Fr).
    1,2: split; [exact Logic.I|]; exact (conj I (conj N (conj C (fun _ _ => eq_refl)))).
    - (* submitted: a new entry *)
      destruct W as (_ & _ & _ & W). rewrite S in W. destruct (g_pending s k I N C) as (Wp & I' & N' & F' & Fr).
      split; [exact (conj Wp Logic.I)|]. refine (conj I' (conj N' (conj _ Fr))). exists 0. split; [exact F'|symmetry; apply W].
    - (* ended by the matcher, the user or the close: the entry goes *)
      destruct C as (f & B & Ef). destruct (g_terminal s k f I N B) as (I' & N' & F' & Fr).
      assert (E : rv k evs = [RTerminal k] /\ st <> Active) by (destruct Cl; split; (reflexivity || discriminate)). destruct E as [-> NA].
      split; [exact (conj Logic.I Logic.I)|]. refine (conj I' (conj N' (conj _ Fr))). unfold entry_ok. cbn. destruct st; try exact F'. congruence.
    - (* it completes the order: the entry goes *)
      rewrite (proj2 (qeq_b_true _ _)) in B' by (rewrite qadd_ok, Ef, <- Eq; lra).
      exact (conj (conj Wt Logic.I) (conj I' (conj N' (conj B' Fr)))).
    - (* a partial fill: the entry stays with more filled, unless the matcher cancels the rest *)
      rewrite (proj2 (qeq_b_false _ _)) in B' by (rewrite qadd_ok, Ef, <- Eq; lra).
      destruct c; cbn [revs_of flat_map rev_of app fold_left].
      + destruct (g_terminal _ k _ I' N' B') as (I2 & N2 & F2 & Fr2). split; [exact (conj Wt (conj Logic.I Logic.I))|].
        refine (conj I2 (conj N2 (conj F2 _))). intros k' Hk. rewrite (Fr2 k' Hk). exact (Fr k' Hk).
      + split; [exact (conj Wt Logic.I)|]. refine (conj I' (conj N' (conj _ Fr))).
        exists (qadd f q). split; [exact B'|]. cbn. rewrite !qadd_ok, Ef. reflexivity.
  Qed.

  Lemma ostep_qty o i : os_qty (fst (ostep o i)) = os_qty o.
  Proof. destruct i as [a|r fee| | |]; cbn [ostep].
    - destruct (os_status o), (os_place o); reflexivity.
    - destruct (os_place o); [reflexivity|..]; (destruct (is_final (os_status o)); [reflexivity|]);
        (destruct r as [|rr|rr|p q ct rc]; [reflexivity|apply mark_qty ..|]); cbv zeta;
        (destruct (is_final _); [reflexivity|]); (destruct rc; [exact (mark_qty (order_fill o p q fee) SCancelled)|reflexivity]).
    - destruct (is_final (os_status o)); [reflexivity|apply mark_qty].
    - destruct (os_place o); reflexivity.
    - destruct (os_place o); try reflexivity. apply mark_qty. Qed.

  Lemma gstep_inv os s k i : GInv os s -> in_ok (os k) i ->
    wf_run s (gevents os (k, i)) /\ GInv (fst (gstep (os, s) (k, i))) (snd (gstep (os, s) (k, i))).
  Proof.
    intros (I & N & H) Hin. destruct (H k) as (Eq & W & E).
    destruct (local_step s k (os k) i I N Eq W E Hin) as [Wr (I' & N' & E' & Fr)].
    split; [exact Wr|]. unfold gstep; cbn [fst snd]. split; [exact I'|]. split; [exact N'|].
    intros k'. unfold upd. destruct (Nat.eqb_spec k' k) as [->|A].
    - split; [rewrite ostep_qty; exact Eq|]. split; [exact (proj1 (otrans_ok _ _ _ W (ostep_trans (os k) i W Hin)))|exact E'].
    - destruct (H k') as (Eq' & W' & E2). split; [exact Eq'|]. split; [exact W'|].
      unfold entry_ok in *. rewrite (Fr k' A). exact E2.
  Qed.

  (* a whole back-test seen from the broker: any list of (order, input) pairs *)
  Definition ostep_all (os : nat -> ostate) (ki : nat * oin) : nat -> ostate := upd os (fst ki) (fst (ostep (os (fst ki)) (snd ki))).
  Fixpoint gins_ok (os : nat -> ostate) (l : list (nat * oin)) : Prop :=
    match l with [] => True | ki :: t => in_ok (os (fst ki)) (snd ki) /\ gins_ok (ostep_all os ki) t end.
  Fixpoint gevs (os : nat -> ostate) (l : list (nat * oin)) : list rev :=
    match l with [] => [] | ki :: t => gevents os ki ++ gevs (ostep_all os ki) t end.
  Fixpoint gfinal (os : nat -> ostate) (l : list (nat * oin)) : nat -> ostate :=
    match l with [] => os | ki :: t => gfinal (ostep_all os ki) t end.

  Theorem grun_inv l : forall os s, GInv os s -> gins_ok os l ->
    wf_run s (gevs os l) /\ GInv (gfinal os l) (fold_left rstep (gevs os l) s).
  Proof.
    induction l as [|[k i] t IH]; intros os s G Hin; cbn [gevs gfinal gins_ok] in *.
    - split; [exact Logic.I|exact G].
    - destruct Hin as [Hi Ht]. cbn [fst snd] in Hi.
      destruct (gstep_inv os s k i G Hi) as [W1 G1]. unfold gstep in G1; cbn [fst snd] in G1.
      destruct (IH _ _ G1 Ht) as [W2 G2].
      split; [exact (wf_run_app _ _ _ W1 W2)|]. rewrite fold_left_app. exact G2.
  Qed.

  Lemma book_empty_if_none l : (forall k, rfind k l = None) -> l = [].
  Proof. destruct l as [|x t]; [reflexivity|]. intros H. specialize (H (r_id x)). cbn in H. rewrite Nat.eqb_refl in H. discriminate. Qed.
End Many.

(* a book in which no id but k is found holds at most the entry of k *)
Lemma book_only k l : NoDup (ids l) -> (forall k', k' <> k -> rfind k' l = None) -> l = match rfind k l with Some x => [x] | None => [] end.
Proof. intros N H. destruct l as [|x t]; [reflexivity|]. cbn in *. destruct (Nat.eqb_spec (r_id x) k) as [<-|E].
  - inversion N as [|? ? Hx Ht]; subst. f_equal. apply book_empty_if_none. intros k'. generalize (H k').
    destruct (Nat.eqb_spec (r_id x) k') as [<-|E]; intros H'; [apply notin_rfind_none, Hx|apply H'; congruence].
  - specialize (H _ E). rewrite Nat.eqb_refl in H. discriminate. Qed.

(* from nothing: every order fresh, nothing reserved, an empty book *)
Lemma grun_fresh qtys reserves l : (forall k, 0 < qtys k) -> (forall k, 0 <= reserves k) ->
  let os0 := fun k => fresh_order (qtys k) in
  let s0 := {| rs_frozen := 0; rs_book := [] |} in
  gins_ok os0 l -> wf_run s0 (gevs qtys reserves os0 l) /\ GInv qtys reserves (gfinal os0 l) (fold_left rstep (gevs qtys reserves os0 l) s0).
Proof. intros Hq Hr os0 s0. apply (grun_inv qtys reserves Hq Hr).
  split; [split; [reflexivity|constructor]|]. split; [constructor|]. intros k. split; [reflexivity|]. split; [apply fresh_wf; apply Hq|reflexivity]. Qed.

(* From nothing, for every list of (order id, input) pairs the broker can produce: the events the account hears form a conforming run of the
   reserve machine, reserved cash equals the sum over the open orders of the unfilled fraction of their initial reserve (RInv), and it is zero
   whenever no order is open. *)
Theorem interleaved_lifecycles_discharge_the_protocol qtys reserves l :
  (forall k, 0 < qtys k) -> (forall k, 0 <= reserves k) ->
  let os0 := fun k => fresh_order (qtys k) in
  let s0 := {| rs_frozen := 0; rs_book := [] |} in
  gins_ok os0 l ->
  let evs := gevs qtys reserves os0 l in
  let sf := fold_left rstep evs s0 in
  wf_run s0 evs /\ RInv sf /\ 0 <= rs_frozen sf /\
  ((forall k, os_status (gfinal os0 l k) <> Active) -> rs_book sf = [] /\ rs_frozen sf == 0).
Proof.
  intros Hq Hr os0 s0 Hin evs sf.
  destruct (grun_fresh qtys reserves l Hq Hr Hin : wf_run s0 evs /\ GInv qtys reserves (gfinal os0 l) sf) as [W (I & N & H)].
  split; [exact W|]. split; [exact I|]. split; [apply frozen_nonneg; exact I|].
  intros NA. assert (B : rs_book sf = []).
  { apply book_empty_if_none. intros k. destruct (H k) as (_ & _ & E). unfold entry_ok in E. specialize (NA k).
    destruct (os_status (gfinal os0 l k)); try exact E. congruence. }
  split; [exact B|]. apply frozen_zero_when_no_open; assumption.
Qed.
